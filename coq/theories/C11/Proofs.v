(* C11 proofs.  The taxonomy facts are decided by computation over the generated (finite) class table; the statements
   about validation, the memoising decorator and the call stages hold for every hint, key sequence and hook list. *)
From Coq Require Import List String Bool Arith.
From BT Require Import Gen.ExcTree C11.Exc.
Import ListNotations.
Local Open Scope string_scope.

Definition is_warning_cls (c : string) : bool := descends c "Warning".

(* [t] ends with [s], and nowhere has [s] followed by an underscore *)
Definition suffix (s t : string) : bool := contains s t && negb (contains (s ++ "_") t) &&
  (fix ends (u : string) := String.eqb u s || match u with EmptyString => false | String _ r => ends r end) t.

(* Every ancestor of a class, itself included.  descends walks up exc_parents once for each root it is asked
   about, and each step of the walk is a search of the whole table; here one walk answers every question. *)
Fixpoint ancestors_n (n : nat) (c : string) : list string :=
  c :: match n with 0 => [] | S n' => flat_map (ancestors_n n') (parents c) end.

Lemma descends_ancestors n : forall c r, descends_n n c r = mem r (ancestors_n n c).
Proof.
  induction n as [|n IH]; intros c r; cbn [descends_n ancestors_n mem existsb]; rewrite (String.eqb_sym c r).
  - reflexivity.
  - f_equal. induction (parents c) as [|p ps IHp]; cbn [flat_map existsb]; [reflexivity|].
    now rewrite existsb_app, IH, IHp.
Qed.

(* what the taxonomy asks of one class, in terms of any test "the class descends from r".  The naming discipline:
   BeartypeDecor...Exception under BeartypeDecorException, BeartypeCall...Exception under BeartypeCallException,
   ...Violation under BeartypeHintViolation, warnings are not exceptions of the other trees.  The theorems cite a
   condition by its position in this list ([class_sweep i]). *)
Definition class_conds : list ((string -> bool) -> string -> bool) := [
  fun under c => under r_exc || under r_warn || String.eqb c "_BeartypeHintForwardRefExceptionMixin";
  fun under c => implb (mem c raised_beartype_classes) (under r_exc);
  fun under c => implb (String.prefix "BeartypeDecor" c && suffix "Exception" c) (under r_decor);
  fun under c => implb (String.prefix "BeartypeCall" c && suffix "Exception" c) (under r_call);
  fun under c => implb (String.prefix "BeartypeDoor" c && suffix "Exception" c) (under r_door);
  fun under c => implb (suffix "Violation" c) (under "BeartypeHintViolation");
  fun under c => implb (under "Warning") (under r_warn);
  fun under c => negb (under r_decor && under r_call);
  fun under c => negb (under "TypeError")].

(* the one evaluation over the class table *)
Lemma classes_swept :
  forallb (fun c => let a := ancestors_n 16 c in forallb (fun k => k (fun r => mem r a) c) class_conds)
    beartype_classes = true.
Proof. vm_compute. reflexivity. Qed.

Lemma forallb_nth {A} (f : A -> bool) l d i : f d = true -> forallb f l = true -> f (nth i l d) = true.
Proof.
  intros Hd H. destruct (nth_in_or_default i l d) as [Hin| ->]; [exact (proj1 (forallb_forall _ _) H _ Hin)|exact Hd].
Qed.

(* its i-th condition, about descends *)
Lemma class_sweep i :
  forallb (fun c => nth i class_conds (fun _ _ => true) (descends c) c) beartype_classes = true.
Proof.
  apply forallb_forall. intros c Hc.
  apply (forallb_nth (fun k => k (descends c) c)); [reflexivity|].
  (* the swept fact for c in place of [true]; then both sides are spelled out and the walks rewritten, so that
     they are the same text and nothing is evaluated again *)
  rewrite <- (proj1 (forallb_forall _ _) classes_swept c Hc). unfold class_conds, descends. cbn [forallb].
  now rewrite !descends_ancestors.
Qed.

(* the class lists are generated in the same (sorted) order, so one pass tells that one is within another *)
Fixpoint subseq (l' l : list string) : bool :=
  match l', l with
  | [], _ => true
  | _, [] => false
  | x :: r', y :: r => if String.eqb x y then subseq r' r else subseq l' r
  end.

Lemma subseq_In l : forall l' c, subseq l' l = true -> In c l' -> In c l.
Proof.
  induction l as [|y l IH]; intros [|x l'] c H Hc; cbn in *; try easy.
  destruct (String.eqb_spec x y) as [E|_]; [destruct Hc as [Hc|Hc]|]; [left; congruence|right; eauto..].
Qed.

Lemma public_listed : subseq public_classes beartype_classes = true.
Proof. vm_compute. reflexivity. Qed.

Lemma raised_listed : subseq raised_beartype_classes beartype_classes = true.
Proof. vm_compute. reflexivity. Qed.

Lemma all_classes_rooted :
  forallb (fun c => descends c r_exc || descends c r_warn || String.eqb c "_BeartypeHintForwardRefExceptionMixin") beartype_classes = true.
Proof. exact (class_sweep 0). Qed.

Lemma public_not_private : forallb (fun c => negb (is_private c)) public_classes = true.
Proof. vm_compute. reflexivity. Qed.

(* the one unrooted class is private *)
Lemma public_rooted : forallb (fun c => descends c r_exc || descends c r_warn) public_classes = true.
Proof.
  apply forallb_forall. intros c Hc.
  pose proof (proj1 (forallb_forall _ _) public_not_private c Hc) as Hp.
  apply (subseq_In _ _ _ public_listed), (proj1 (forallb_forall _ _) all_classes_rooted) in Hc.
  destruct (String.eqb_spec c "_BeartypeHintForwardRefExceptionMixin") as [E|_]; [now rewrite E in Hp|].
  now rewrite orb_false_r in Hc.
Qed.

Lemma In_mem c l : In c l -> mem c l = true.
Proof. intros H. apply existsb_exists. exists c. split; [exact H|apply String.eqb_refl]. Qed.

(* every class named in a raise statement under beartype/ is a BeartypeException *)
Lemma raised_classes_rooted : forallb (fun c => descends c r_exc) raised_beartype_classes = true.
Proof.
  assert (S : forallb (fun c => implb (mem c raised_beartype_classes) (descends c r_exc)) beartype_classes = true)
    by exact (class_sweep 1).
  apply forallb_forall. intros c Hc.
  pose proof (proj1 (forallb_forall _ _) S c (subseq_In _ _ _ raised_listed Hc)) as H. cbv beta in H.
  now rewrite (In_mem _ _ Hc) in H.
Qed.

Lemma door_named_rooted :
  forallb (fun c => implb (String.prefix "BeartypeDoor" c && suffix "Exception" c) (descends c r_door)) beartype_classes = true.
Proof. exact (class_sweep 4). Qed.

(* builtin exceptions raised by name anywhere under beartype/: only those Python's protocols prescribe (module
   __getattr__, mapping __missing__ / __getitem__, __hash__, abstract methods), in no more files than audited *)
Definition builtin_raise_budget : list (string * nat) :=
  [("AttributeError", 3); ("ImportError", 1); ("KeyError", 2); ("NotImplementedError", 4); ("RuntimeError", 1); ("TypeError", 1)].

(* the classes the modelled stages raise by name, the class door callers pass to the validation, and the
   return violation (the return check is outside the model) *)
Lemma stage_classes_acceptable :
  forallb acceptable ["BeartypeDecorHintNonpepException"; "BeartypeDecorHintPep484Exception"; "BeartypeDecorHintPepUnsupportedException";
                      "BeartypeDoorNonpepException"; "BeartypeDoorHintViolation"; "BeartypeCallHintParamViolation";
                      "BeartypeCallHintReturnViolation"] = true.
Proof. vm_compute. reflexivity. Qed.

Lemma stage_decor_classes :
  forallb (fun c => descends c r_decor) ["BeartypeDecorHintNonpepException"; "BeartypeDecorHintPep484Exception";
                                          "BeartypeDecorHintPepUnsupportedException"] = true.
Proof. vm_compute. reflexivity. Qed.

(* the loop raises the caller's class, and raises unless every item is acceptable *)
Lemma tuple_items_raise_eq r ec items :
  tuple_items_raise r ec items = if forallb (item_ok r) items then None else Some ec.
Proof. induction items as [|[[|]| |] items IH]; cbn [tuple_items_raise forallb item_ok andb]; auto. now destruct r. Qed.

Lemma tuple_items_raise_none r ec items :
  tuple_items_raise r ec items = None -> forallb (item_ok r) items = true.
Proof. rewrite tuple_items_raise_eq. now destruct (forallb _ _). Qed.

(* The raiser in closed form: it raises exactly when the tester says no; the class is the caller's, except for a
   hint with a sign, which die_if_hint_pep_unsupported answers with one of two classes of its own. *)
Theorem die_unless_hint_eq r ec h :
  die_unless_hint r ec h =
  if is_hint r h then Ret tt
  else Raise (EBear match h with
                    | JPep _ true => "BeartypeDecorHintPep484Exception"
                    | JPep _ false => "BeartypeDecorHintPepUnsupportedException"
                    | _ => ec
                    end).
Proof.
  unfold die_unless_hint. destruct (is_hint r h); [reflexivity|].
  destruct h as [s [|]| b | [|i items] |]; try reflexivity.
  rewrite tuple_items_raise_eq. now destruct (forallb _ _).
Qed.

(* so whatever holds of the caller's class and of those two holds of the class raised *)
Lemma validation_raises (P : string -> Prop) r ec h e :
  P ec -> P "BeartypeDecorHintPep484Exception" /\ P "BeartypeDecorHintPepUnsupportedException" ->
  die_unless_hint r ec h = Raise e -> exists c, e = EBear c /\ P c.
Proof.
  intros Hec [H1 H2]. rewrite die_unless_hint_eq. destruct (is_hint r h); [discriminate|]. intros [= <-].
  eexists. split; [reflexivity|]. now destruct h as [s [|]| | |].
Qed.

Lemma pep_classes_decor (P := fun c => acceptable c = true /\ descends c r_decor = true) :
  P "BeartypeDecorHintPep484Exception" /\ P "BeartypeDecorHintPepUnsupportedException".
Proof. vm_compute. auto. Qed.

Definition ok_decor (e : exc) : Prop := exists c, e = EBear c /\ acceptable c = true /\ descends c r_decor = true.

(* the entry points validate with one class *)
Corollary entry_validation h e : die_unless_hint true "BeartypeDecorHintNonpepException" h = Raise e -> ok_decor e.
Proof. apply validation_raises; [now vm_compute|exact pep_classes_decor]. Qed.

(* a table of answers, values (R := Ret) or exceptions (R := Raise), tells the truth about f *)
Definition table_ok {V X} (f : key -> res V) (R : X -> res V) (l : list (nat * X)) : Prop :=
  forall k x, hashable k = true -> lookup (kid k) l = Some x -> f k = R x.

Definition memo_ok {V} (f : key -> res V) (m : memo V) : Prop :=
  table_ok f Ret (m_vals m) /\ table_ok f Raise (m_excs m).

Lemma memo0_ok {V} (f : key -> res V) : memo_ok f memo0.
Proof. split; intros k x _ H; discriminate. Qed.

(* another key object with the same identity is the same key *)
Lemma table_ok_cons {V X} (f : key -> res V) (R : X -> res V) l k x :
  hashable k = true -> f k = R x -> table_ok f R l -> table_ok f R ((kid k, x) :: l).
Proof.
  intros Hh Hf Hl k' x' Hh' H. cbn [lookup] in H. destruct (Nat.eqb_spec (kid k') (kid k)) as [E|_]; [|now apply Hl].
  injection H as <-. destruct k, k'; cbn in *. now subst.
Qed.

(* one memoised call answers exactly what the function answers, and keeps the memo truthful *)
Lemma cached_call_transparent {V} (f : key -> res V) m k :
  memo_ok f m -> exists m', cached_call f m k = (m', f k) /\ memo_ok f m'.
Proof.
  intros [Hv He]. unfold cached_call. destruct (hashable k) eqn:Hh; cbn [negb]; [|now exists m].
  destruct (lookup (kid k) (m_excs m)) as [e|] eqn:Le.
  { rewrite (He k e Hh Le). exists m. now destruct (is_type_error e). }
  destruct (lookup (kid k) (m_vals m)) as [v|] eqn:Lv.
  { rewrite (Hv k v Hh Lv). now exists m. }
  destruct (f k) as [v|e] eqn:Hf.
  - eexists. split; [reflexivity|]. split; [now apply table_ok_cons|exact He].
  - destruct (is_exception e); [|now exists m].
    exists {| m_vals := m_vals m; m_excs := (kid k, e) :: m_excs m |}.
    split; [now destruct (is_type_error e)|]. split; [exact Hv|now apply table_ok_cons].
Qed.

(* every history of calls, hashable or not, raising or not: the memoised function is indistinguishable from the
   function itself, exceptions included (a TypeError raised by the function is not mistaken for an unhashable key) *)
Theorem cached_transparent {V} (f : key -> res V) ks m : memo_ok f m -> cached_run f m ks = map f ks.
Proof.
  revert m. induction ks as [|k ks IH]; intros m Hm; cbn [cached_run map]; [reflexivity|].
  destruct (cached_call_transparent f m k Hm) as (m' & -> & Hm'). now rewrite (IH _ Hm').
Qed.

Theorem reraise_keeps_exception e : reraise_placeholder e = e.
Proof. reflexivity. Qed.

Lemma run_hooks_raises hs e : run_hooks hs = Raise e -> In e (hook_excs hs).
Proof.
  induction hs as [|h hs IH]; cbn [run_hooks]; [discriminate|].
  destruct h as [[|]|e']; cbn [hook_excs flat_map app] in *.
  - exact IH.
  - discriminate.
  - intro H; injection H as <-. left. reflexivity.
Qed.

(* the first hook that raises, before any hook answers False, decides: its exception object comes out unchanged *)
Lemma run_hooks_first_raise pre e post :
  Forall (fun h => h = HAns true) pre -> run_hooks (pre ++ HRaise e :: post) = Raise e.
Proof.
  induction 1 as [|h pre Hh _ IH]; cbn [app run_hooks]; [reflexivity|]. subst h. exact IH.
Qed.

(* is_bearable: a boolean, a public decoration-time beartype exception about the hint, or the very exception object
   a user hook raised *)
Theorem is_bearable_outcomes h hs :
  match is_bearable h hs with
  | Ret _ => True
  | Raise e => ok_decor e \/ In e (hook_excs hs)
  end.
Proof.
  unfold is_bearable.
  destruct (die_unless_hint true "BeartypeDecorHintNonpepException" h) as [u|e] eqn:Hd.
  - destruct (run_hooks hs) as [b|e] eqn:Hr; [exact I|]. right. apply run_hooks_raises; assumption.
  - left. exact (entry_validation h e Hd).
Qed.

Theorem die_if_unbearable_outcomes h hs :
  match die_if_unbearable h hs with
  | Ret _ => True
  | Raise e => ok_decor e \/ In e (hook_excs hs) \/
               (e = EBear "BeartypeDoorHintViolation" /\ is_bearable h hs = Ret false)
  end.
Proof.
  unfold die_if_unbearable. pose proof (is_bearable_outcomes h hs) as H.
  destruct (is_bearable h hs) as [[|]|e]; [exact I| |].
  - right. right. split; reflexivity.
  - destruct H; auto.
Qed.

Theorem decorate_outcomes h : match decorate h with Ret _ => True | Raise e => ok_decor e end.
Proof.
  unfold decorate. destruct (die_unless_hint true "BeartypeDecorHintNonpepException" h) as [u|e] eqn:Hd; [exact I|].
  exact (entry_validation h e Hd).
Qed.

(* a decorated call: the body's own outcome (value or exception, unchanged) when the check passes; the violation when it
   fails; the hook's own exception object when user code raises during the check *)
Theorem call_outcomes hs body :
  call_decorated hs body = body \/
  (call_decorated hs body = Raise (EBear "BeartypeCallHintParamViolation") /\ run_hooks hs = Ret false) \/
  (exists e, call_decorated hs body = Raise e /\ In e (hook_excs hs)).
Proof.
  unfold call_decorated. destruct (run_hooks hs) as [[|]|e] eqn:Hr; auto.
  right. right. exists e. split; [reflexivity|]. apply run_hooks_raises; assumption.
Qed.

(* no stage manufactures a builtin exception *)
Theorem no_raw_exception h hs body c :
  (forall n t b, In (EUser n t b) (hook_excs hs) -> True) ->
  ~ In (ERaw c) (hook_excs hs) -> body <> Raise (ERaw c) ->
  is_bearable h hs <> Raise (ERaw c) /\ die_if_unbearable h hs <> Raise (ERaw c) /\ decorate h <> Raise (ERaw c) /\
  call_decorated hs body <> Raise (ERaw c).
Proof.
  intros _ Hn Hb. repeat split.
  - intro H. pose proof (is_bearable_outcomes h hs) as O. rewrite H in O. destruct O as [[c' [E _]]|O]; [discriminate|auto].
  - intro H. pose proof (die_if_unbearable_outcomes h hs) as O. rewrite H in O.
    destruct O as [[c' [E _]]|[O|[E _]]]; [discriminate|auto|discriminate].
  - intro H. pose proof (decorate_outcomes h) as O. rewrite H in O. destruct O as [c' [E _]]. discriminate.
  - intro H. destruct (call_outcomes hs body) as [O|[[O _]|[e [O I']]]]; rewrite H in O.
    + auto.
    + discriminate.
    + injection O as <-. auto.
Qed.

Example validation_rejects_something :
  die_unless_hint true "BeartypeDecorHintNonpepException" (JTuple [IType true; IOther]) = Raise (EBear "BeartypeDecorHintNonpepException") /\
  die_unless_hint false "BeartypeDoorNonpepException" (JTuple [IType true; IStr]) = Raise (EBear "BeartypeDoorNonpepException") /\
  die_unless_hint true "BeartypeDecorHintNonpepException" (JTuple [IType true; IStr]) = Ret tt /\
  die_unless_hint true "BeartypeDecorHintNonpepException" (JPep false true) = Raise (EBear "BeartypeDecorHintPep484Exception").
Proof. repeat split. Qed.

Example cached_type_error_example :
  let f := fun k : key => if Nat.eqb (kid k) 1 then Raise (EUser 9 true false) else Ret (kid k) in
  cached_run f memo0 [{| kid := 1; hashable := true |}; {| kid := 1; hashable := true |}; {| kid := 2; hashable := false |}]
  = [Raise (EUser 9 true false); Raise (EUser 9 true false); Ret 2].
Proof. reflexivity. Qed.
