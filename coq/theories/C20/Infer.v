(* C20 model: beartype.bite.infer_hint under its default (On) strategy, over the object universe
   of the shared core.  Mirrors beartype/bite/_infermain.py (order of tests), the per-class
   classification regenerated into Gen/InferTable.v, and
   beartype/bite/collection/infercollectionitems.py (item / key / value unions, the fixed-tuple
   rule for short root tuples).  No proofs here. *)
From Coq Require Import List ZArith Bool Arith String.
From BT Require Import Gen.ClassTable Gen.SignSets Core.PyVal Core.Expr Core.Hint C20.Fac Gen.InferTable.
Import ListNotations.
Local Open Scope list_scope.

(* make_hint_pep484604_union over the hints of the items: one hint stays itself *)
Definition mk_u (hs : list hint) : hint :=
  match hs with
  | [h] => h
  | _ => HUnion hs
  end.

(* Annotated[h, IsInstance[cls]] on the collections.abc path *)
Definition wrap (ann : bool) (c : nat) (h : hint) : hint :=
  if ann then HAnnot h [VInst [c]] else h.

Fixpoint infer (root : bool) (x : pyval) {struct x} : hint :=
  match x with
  | VNone | VBool _ | VInt _ | VFloat _ | VStr _ | VBytes _ => HCls (type_of x)
  | VCls c => HType [c]                                  (* isinstance(obj, type): type[obj] *)
  | VObj c _ => HCls c                                   (* no inferer applies: the class *)
  | VCont c items =>
      match infer_table c with
      | None => HCls c
      | Some (f, ann) =>
          wrap ann c
            match f with
            | FBare b => HCls b
            | FTuple =>
                match items with
                | [] => HCls c_tuple
                | _ =>
                    if root && Nat.leb (List.length items) root_tuple_fixed_max
                    then HTuple (map (infer false) items)
                    else HCont s_Tuple (mk_u (map (infer false) items))
                end
            | FCont s =>
                if issub c c_Collection then
                  match items with
                  | [] => HCls (sign_origin s)
                  | _ => HCont s (mk_u (map (infer false) items))
                  end
                else HCls (sign_origin s)                (* not a Collection: the bare ABC *)
            | _ => HAny                                  (* unreachable for well-classified objects *)
            end
      end
  | VMap c kvs =>
      match infer_table c with
      | None => HCls c
      | Some (f, ann) =>
          wrap ann c
            match f with
            | FMap m =>
                match kvs with
                | [] => HCls (map_origin m)
                | _ => HMap m (mk_u (map (fun kv => infer false (fst kv)) kvs))
                              (mk_u (map (fun kv => infer false (snd kv)) kvs))
                end
            | FCounter =>
                match kvs with
                | [] => HCls counter_origin
                | _ => HCounter (mk_u (map (fun kv => infer false (fst kv)) kvs))
                end
            | FCont s =>                                  (* a mapping classified as a plain collection: its keys *)
                match kvs with
                | [] => HCls (sign_origin s)
                | _ => HCont s (mk_u (map (fun kv => infer false (fst kv)) kvs))
                end
            | FBare b => HCls b
            | _ => HAny
            end
      end
  end.

Definition infer_hint (x : pyval) : hint := infer true x.

(* objects whose inference is modelled: classes are classified, shapes fit the classification,
   and (the one semantic restriction, see C20_counter_refuted in Props/C20.v) Counter values are ints *)
Fixpoint modelled (x : pyval) {struct x} : bool :=
  match x with
  | VNone | VBool _ | VInt _ | VFloat _ | VStr _ | VBytes _ => true
  | VCls c => Nat.ltb c class_count
  | VObj c _ => Nat.ltb c class_count && match infer_table c with None => true | Some _ => false end
  | VCont c items =>
      Nat.ltb c class_count &&
      match infer_table c with
      | None => false
      | Some (f, _) => match f with FCont _ | FTuple | FBare _ => true | _ => false end
      end && forallb modelled items
  | VMap c kvs =>
      Nat.ltb c class_count &&
      match infer_table c with
      | None => false
      | Some (f, _) => match f with FMap _ | FCounter | FCont _ => true | _ => false end
      end && forallb (fun kv => modelled (fst kv) && modelled (snd kv)) kvs
  end.

Fixpoint counters_hold_ints (x : pyval) {struct x} : bool :=
  match x with
  | VCont _ items => forallb counters_hold_ints items
  | VMap c kvs =>
      forallb (fun kv => counters_hold_ints (fst kv) && counters_hold_ints (snd kv)) kvs &&
      match infer_table c with
      | Some (FCounter, _) => forallb (fun kv => isinst (snd kv) [c_int]) kvs
      | _ => true
      end
  | _ => true
  end.
