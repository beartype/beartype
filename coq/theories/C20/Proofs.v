(* C20 proofs: the hint inferred from an object is satisfied by that object at full depth. *)
From Coq Require Import List ZArith Bool.
From BT Require Import Gen.ClassTable Gen.SignSets Core.PyVal Core.Hint Core.ClassFacts Core.CheckFacts Core.Induct.
From BT Require Import C20.Fac Gen.InferTable C20.Infer.
Import ListNotations.

(* every classified class is an instance of what its factory checks *)
Definition table_ok : bool :=
  forallb (fun c =>
    match infer_table c with
    | None => true
    | Some (f, _) =>
        match f with
        | FCont s => issub c (sign_origin s)
        | FMap m => issub c (map_origin m)
        | FCounter => issub c counter_origin
        | FTuple => issub c c_tuple && issub c (sign_origin s_Tuple)
        | FBare b => issub c b
        | FUnknown => true
        end
    end) ids.

Lemma table_ok_true : table_ok = true.
Proof. vm_compute. reflexivity. Qed.

Lemma table_fact c f ann : c < class_count -> infer_table c = Some (f, ann) ->
  match f with
  | FCont s => issub c (sign_origin s) = true
  | FMap m => issub c (map_origin m) = true
  | FCounter => issub c counter_origin = true
  | FTuple => issub c c_tuple = true /\ issub c (sign_origin s_Tuple) = true
  | FBare b => issub c b = true
  | FUnknown => True
  end.
Proof.
  intros Hc E. pose proof table_ok_true as H. unfold table_ok in H. rewrite forallb_forall in H.
  specialize (H c (in_ids c Hc)). rewrite E in H. destruct f; auto. now apply andb_true_iff in H.
Qed.

Section Accept.
  Variable pb : nat -> pyval -> bool.

  (* every member of a list satisfies the union of the hints inferred from the members *)
  Lemma sat_mk_u_map {A} (f : A -> pyval) l a :
    In a l -> sat pb (infer false (f a)) (f a) = true -> sat pb (mk_u (map (fun a => infer false (f a)) l)) (f a) = true.
  Proof.
    intros Hin%(in_map (fun a => infer false (f a))) Hs. unfold mk_u.
    destruct (map _ l) as [|h [|h' hs]]; [destruct Hin|destruct Hin as [->|[]]; exact Hs|rewrite sat_union; apply existsb_exists; eauto].
  Qed.

  Lemma sat_wrap_self ann h x : type_of x < class_count -> sat pb (wrap ann (type_of x) h) x = sat pb h x.
  Proof.
    intros Hlt. destruct ann; [|reflexivity]. cbn [wrap sat forallb vmean].
    now rewrite isinst_single, issub_refl, !andb_true_r.
  Qed.

  (* the bare origin for an empty collection, the subscripted hint otherwise: the latter suffices *)
  Lemma sat_unless_empty {A} (l : list A) c h x :
    (sat pb h x = true -> isinst x [c] = true) -> sat pb h x = true -> sat pb (match l with [] => HCls c | _ => h end) x = true.
  Proof. destruct l; auto. Qed.

  Lemma sat_cont l s ch x :
    issub (type_of x) (sign_origin s) = true -> items_of x = Some l ->
    (forall y, In y l -> sat pb ch y = true) -> sat pb (HCont s ch) x = true.
  Proof.
    intros Hi Hx Hl. cbn [sat]. unfold coll_items. rewrite isinst_single, Hi, Hx.
    destruct (issub _ c_Collection); [|reflexivity]. apply forallb_forall, Hl.
  Qed.

  Definition good (x : pyval) : Prop :=
    forall root, modelled x = true -> counters_hold_ints x = true -> sat pb (infer root x) x = true.

  Theorem infer_accepts x : good x.
  Proof.
    induction x as [| | | | | |c l IHx|c kvs IHx|c|c attrs _] using pyval_ind2; intros root Hm Hc.
    1-6: vm_compute; reflexivity.
    - (* containers *)
      cbn [modelled] in Hm. apply andb_true_iff in Hm as [[Hlt%Nat.ltb_lt Hf]%andb_true_iff Hitems].
      cbn [counters_hold_ints] in Hc. cbn [infer].
      destruct (infer_table c) as [[f ann]|] eqn:Et; [|discriminate].
      pose proof (table_fact c f ann Hlt Et) as Hfact. rewrite (sat_wrap_self ann _ (VCont c l)) by exact Hlt.
      assert (Hall : forall y, In y l -> sat pb (mk_u (map (infer false) l)) y = true).
      { intros y Hy. rewrite forallb_forall in Hitems, Hc. rewrite Forall_forall in IHx.
        apply (sat_mk_u_map (fun y => y)); auto. apply IHx; auto. }
      destruct f; try discriminate.
      + (* FCont *)
        assert (G : sat pb (HCont s (mk_u (map (infer false) l))) (VCont c l) = true).
        { now apply (sat_cont l). }
        destruct (issub c c_Collection); [|cbn [sat]; now rewrite isinst_single].
        apply sat_unless_empty; [|exact G]. intros _. now rewrite isinst_single.
      + (* FTuple *)
        destruct Hfact as [Ht Ho]. destruct l as [|a l']; [cbn [sat]; now rewrite isinst_single|].
        destruct (root && _).
        * cbn [sat]. rewrite isinst_single. cbn [type_of]. rewrite Ht. cbn [andb items_of].
          clear -IHx Hitems Hc. induction IHx as [|y l Hy Hl IH]; [reflexivity|]. cbn [map forallb] in *.
          apply andb_true_iff in Hitems as [Hm1 Hm2]. apply andb_true_iff in Hc as [Hc1 Hc2].
          rewrite (Hy false Hm1 Hc1). now apply IH.
        * now apply (sat_cont (a :: l')).
      + (* FBare *)
        cbn [sat]. now rewrite isinst_single.
    - (* mappings *)
      cbn [modelled] in Hm. apply andb_true_iff in Hm as [[Hlt%Nat.ltb_lt Hf]%andb_true_iff Hitems].
      cbn [counters_hold_ints] in Hc. apply andb_true_iff in Hc as [Hc Hints]. cbn [infer].
      destruct (infer_table c) as [[f ann]|] eqn:Et; [|discriminate].
      pose proof (table_fact c f ann Hlt Et) as Hfact. rewrite (sat_wrap_self ann _ (VMap c kvs)) by exact Hlt.
      assert (Hk : forall kv, In kv kvs ->
                sat pb (mk_u (map (fun kv => infer false (fst kv)) kvs)) (fst kv) = true
                /\ sat pb (mk_u (map (fun kv => infer false (snd kv)) kvs)) (snd kv) = true).
      { intros kv Hin. rewrite Forall_forall in IHx. destruct (IHx kv Hin) as [G1 G2].
        rewrite forallb_forall in Hitems, Hc. specialize (Hitems kv Hin). specialize (Hc kv Hin).
        apply andb_true_iff in Hitems as [M1 M2]. apply andb_true_iff in Hc as [C1 C2].
        split; [apply (sat_mk_u_map fst)|apply (sat_mk_u_map snd)]; auto. }
      destruct f; try discriminate; apply sat_unless_empty; try (cbn [sat]; now intros [? _]%andb_true_iff).
      + (* a mapping classified as a plain collection *)
        apply (sat_cont (map fst kvs)); [exact Hfact|reflexivity|]. intros y (kv & <- & Hin)%in_map_iff. now apply Hk.
      + (* FMap *)
        cbn [sat]. rewrite isinst_single. cbn [type_of]. rewrite Hfact.
        apply forallb_forall. intros kv Hin. destruct (Hk kv Hin) as [K1 K2]. now rewrite K1, K2.
      + (* FCounter *)
        cbn [sat]. rewrite (isinst_single (VMap c kvs)). cbn [type_of]. rewrite Hfact.
        apply forallb_forall. intros kv Hin. destruct (Hk kv Hin) as [K1 _]. rewrite K1.
        rewrite forallb_forall in Hints. now apply Hints.
    - (* class objects *)
      cbn [modelled] in Hm. apply Nat.ltb_lt in Hm. cbn [infer sat issubcls existsb]. now rewrite (issub_refl c Hm).
    - (* plain instances *)
      cbn [modelled] in Hm. apply andb_true_iff in Hm as [Hlt%Nat.ltb_lt _].
      cbn [infer sat]. rewrite isinst_single. exact (issub_refl c Hlt).
  Qed.
End Accept.
