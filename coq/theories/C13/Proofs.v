(* C13 proofs: decoration is idempotent.  No induction: a decorated class is marked as such, and decorating a
   marked class is the identity, so nothing is decorated twice below the first level. *)
From Coq Require Import Bool.
From BT Require Import C13.Decor.

Lemma dec_func_idem cf f : dec_func cf (dec_func cf f) = dec_func cf f.
Proof.
  destruct f as [id ann ntc|g]; [|reflexivity]. cbn [dec_func].
  destruct (noop cf || ntc || negb ann) eqn:E; cbn [dec_func]; [now rewrite E|reflexivity].
Qed.

Lemma dec_cls_idem cf c : dec_cls cf (dec_cls cf c) = dec_cls cf c.
Proof. destruct c as [b ms]. cbn [dec_cls]. destruct (noop cf || b) eqn:E; cbn [dec_cls]; [now rewrite E|now rewrite orb_true_r]. Qed.

Lemma dec_member_idem cf m : dec_member cf (dec_member cf m) = dec_member cf m.
Proof.
  destruct m as [f|f|f|g s d|c| |]; cbn [dec_member]; rewrite ?dec_func_idem, ?dec_cls_idem; try reflexivity.
  destruct g, s, d; cbn [option_map]; now rewrite ?dec_func_idem.
Qed.
