(* C16 proofs.  Everything said about the cache files has one form: every slot holds a pair (stamp,
   code) that a predicate P of the slot's marker accepts.  [load_via] keeps any such P that accepts what
   it compiles, and returns code that P accepts at the current source ([load_via_ok]); the theorems
   differ in the choice of P only. *)
From Coq Require Import List Arith.
From BT Require Import C16.Cache.

Definition inv (f : fs) : Prop :=
  (forall s c, plain_slot f = Some (s, c) -> c = CPlain s) /\
  (forall s c, bear_slot f = Some (s, c) -> exists k, c = CBear k s).

Definition run_ok (r : hook * nat) (c : code) : Prop :=
  is_plain c = (match fst r with None => true | Some _ => false end) /\ src_of c = snd r.

Section Slots.
  Variable P : marker -> nat -> code -> Prop.

  Definition slots (f : fs) : Prop := forall m s c, read m f = Some (s, c) -> P m s c.

  Lemma slots0 : slots fs0.
  Proof. intros [] s c H; discriminate. Qed.

  Lemma slots_write m s c f : slots f -> P m s c -> slots (write m (s, c) f).
  Proof. intros Hf Hc m' s' c' H. destruct m, m'; cbn in H; try (injection H as <- <-; exact Hc); now apply Hf. Qed.

  Lemma load_via_ok m h src f : slots f -> P m src (compile h src) ->
    slots (fst (load_via m h src f)) /\ P m src (snd (load_via m h src f)).
  Proof.
    intros Hf Hc. unfold load_via. destruct (read m f) as [[stamp c]|] eqn:E.
    - destruct (Nat.eqb_spec stamp src) as [->|_]; cbn [fst snd]; auto using slots_write.
    - cbn [fst snd]. auto using slots_write.
  Qed.

  (* any history of runs, writing or not *)
  Lemma runsw_ok (Q : hook * nat -> code -> Prop) rs :
    (forall h s, P (marker_of h) s (compile h s)) -> (forall h s c, P (marker_of h) s c -> Q (h, s) c) ->
    forall f, slots f -> Forall2 Q (map fst rs) (runsw f rs).
  Proof.
    intros Hcomp HQ. induction rs as [|[[h s] w] rs IH]; intros f Hf; cbn [runsw map]; [constructor|].
    destruct (load_via_ok (marker_of h) h s f Hf (Hcomp h s)) as [Hf' Hc]. unfold run1w, run1. cbn [fst snd] in *.
    destruct (load_via (marker_of h) h s f) as [f' c]. constructor; [now apply HQ|]. apply IH. now destruct w.
  Qed.
End Slots.

Lemma runsw_all_write rs : forall f, runsw f (map (fun r => (r, true)) rs) = runs f rs.
Proof.
  induction rs as [|[h s] rs IH]; intro f; cbn [runsw runs map]; [reflexivity|].
  unfold run1w. destruct (run1 f (h, s)) as [f' c]. now rewrite IH.
Qed.

(* no mixing, no staleness with respect to the source *)
Definition unmixed (m : marker) (s : nat) (c : code) : Prop :=
  match m with MPlain => c = CPlain s | MBear => exists k, c = CBear k s end.

Lemma inv_slots f : inv f <-> slots unmixed f.
Proof.
  split.
  - intros [Hp Hb] [] s c H; cbn in *; auto.
  - intros H. split; [exact (H MPlain)|exact (H MBear)].
Qed.

Lemma unmixed_compile h s : unmixed (marker_of h) s (compile h s).
Proof. destruct h; cbn; eauto. Qed.

Lemma unmixed_run_ok h s c : unmixed (marker_of h) s c -> run_ok (h, s) c.
Proof. destruct h; cbn; [intros [k ->]|intros ->]; split; reflexivity. Qed.

Theorem runsw_never_mix rs f : inv f -> Forall2 run_ok (map fst rs) (runsw f rs).
Proof. intros Hf%inv_slots. revert f Hf. apply (runsw_ok unmixed); [apply unmixed_compile|apply unmixed_run_ok]. Qed.

Theorem runs_never_mix rs f : inv f -> Forall2 run_ok rs (runs f rs).
Proof.
  intros Hf. pose proof (runsw_never_mix (map (fun r => (r, true)) rs) f Hf) as H.
  now rewrite runsw_all_write, map_map, map_id in H.
Qed.

(* exactness when every hooked run uses the same AST-relevant options *)
Definition exact_k (k : nat) (m : marker) (s : nat) (c : code) : Prop :=
  c = match m with MPlain => CPlain s | MBear => CBear k s end.

Theorem runs_exact_single_akey k rs : forall f, slots (exact_k k) f ->
  (forall c s, In (Some c, s) rs -> akey c = k) ->
  runs f rs = map (fun r => expected (fst r) (snd r)) rs.
Proof.
  induction rs as [|[h s] rs IH]; intros f Hf Hk; cbn [runs map fst snd]; [reflexivity|].
  assert (He : forall c, exact_k k (marker_of h) s c -> c = expected h s).
  { destruct h as [c0|]; cbn; intros c ->; [|reflexivity]. now rewrite (Hk c0 s (or_introl eq_refl)). }
  destruct (load_via_ok (exact_k k) (marker_of h) h s f Hf) as [Hf' Hc]; [symmetry; apply He; now destruct h|].
  unfold run1. cbn [fst snd] in *. destruct (load_via (marker_of h) h s f) as [f' c].
  f_equal; [now apply He|]. apply IH; [exact Hf'|]. intros c0 s0 H. apply (Hk c0 s0). now right.
Qed.

Lemma load_via_inv m h src f : inv f -> m = marker_of h -> inv (fst (load_via m h src f)).
Proof. intros Hf%inv_slots ->. apply inv_slots, (load_via_ok unmixed); [exact Hf|apply unmixed_compile]. Qed.

(* U's load step with its pair pattern replaced by projections: the pattern would block the
   evaluation of every step that follows it *)
Lemma step_U_load hk sH sU s m : u_pc s = 1 -> u_path s = Some m ->
  step hk sH sU false s =
  {| g := g s; h_pc := h_pc s; u_pc := 2; h_path := h_path s; u_path := u_path s; fs_h := fs_h s;
     fs_u := fst (load_via m None sU (fs_u s)); u_loaded := Some (snd (load_via m None sU (fs_u s))) |}.
Proof. intros H1 H2. unfold step. rewrite H1, H2. now destruct (load_via m None sU (fs_u s)). Qed.
