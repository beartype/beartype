(* C08 proofs: the wrapper's "async yield from" is indistinguishable from the wrapped asynchronous
   generator under every finite sequence of protocol operations, for every generator body that
   does not yield while handling GeneratorExit - except for GeneratorExit thrown by hand.
   The state of the wrapper object is a function [wobj] of the state of the inner one, and every
   permitted operation commutes with it. *)
From Coq Require Import List Bool Arith.
From BT Require Import C08.AGen.

Definition wobj (o : obj) : obj :=
  match o with
  | OFresh b => OFresh (wstart o)
  | OSusp k => OSusp (wloop o)
  | ODone => ODone
  end.

Definition lift (r : outcome * obj) : outcome * obj := (fst r, wobj (snd r)).

Lemma relay_of_resp r : of_resp (relay wloop (of_resp r)) = lift (of_resp r).
Proof. now destruct r. Qed.

(* one operation; the hypotheses are what [no_manual_exit] and [polite] say of it *)
Lemma step_sim o p :
  (match p with OpThrow e => negb (Nat.eqb e GeneratorExit) | _ => true end) = true ->
  (match o, p with
   | OSusp b, OpClose => match resume b (IThrow GeneratorExit) with RYield _ _ => false | _ => true end
   | _, _ => true
   end) = true ->
  obj_op (wobj o) p = lift (obj_op o p).
Proof.
  intros Hge Hpol. destruct o as [b|k|]; [| |now destruct p as [|[v|]|e|]].
  - (* not started *) destruct p as [|[v|]|e|]; try reflexivity; apply relay_of_resp.
  - (* suspended *)
    destruct p as [|[v|]|e|]; cbn [obj_op wobj wloop resume]; try apply relay_of_resp.
    + apply negb_true_iff in Hge. rewrite Hge. apply relay_of_resp.
    + rewrite Nat.eqb_refl.
      destruct (resume k (IThrow GeneratorExit)) as [v k'| |e']; [discriminate|reflexivity|].
      cbn [close_resp]. destruct (Nat.eqb e' GeneratorExit) eqn:Ee; cbn [close_resp]; rewrite ?Ee; reflexivity.
Qed.

Theorem wrapper_indistinguishable ps : forall o,
  no_manual_exit ps = true -> polite o ps = true -> run (wobj o) ps = run o ps.
Proof.
  induction ps as [|p ps IH]; intros o Hge Hpol; [reflexivity|].
  cbn [no_manual_exit forallb] in Hge. apply andb_true_iff in Hge as [Hp Hge].
  cbn [polite] in Hpol. apply andb_true_iff in Hpol as [Hq Hpol].
  cbn [run]. rewrite (step_sim o p Hp Hq). destruct (obj_op o p) as [out o']. cbn [lift fst snd] in *.
  f_equal. now apply IH.
Qed.

(* a body that swallows GeneratorExit and returns: thrown by hand, the original reports
   StopAsyncIteration, the wrapper GeneratorExit *)
Definition swallowing : body :=
  Body (fun _ => RYield 1 (Body (fun _ => RReturn))).
