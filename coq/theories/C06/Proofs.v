(* C06 proofs: the trie model refines the flat specification for every history. *)
From Coq Require Import List Bool Arith.
From BT Require Import C06.Trie C06.Spec.
Import ListNotations.

Lemma name_eqb_spec a : forall b, reflect (a = b) (name_eqb a b).
Proof.
  induction a as [|x a IH]; intros [|y b]; cbn; try (constructor; congruence).
  destruct (String.eqb_spec x y), (IH b); constructor; congruence.
Qed.

Lemma names_eqb_spec a : forall b, reflect (a = b) (names_eqb a b).
Proof.
  induction a as [|x a IH]; intros [|y b]; cbn; try (constructor; congruence).
  destruct (name_eqb_spec x y), (IH b); constructor; congruence.
Qed.

Lemma conf_eqb_spec a b : reflect (a = b) (conf_eqb a b).
Proof.
  destruct a as [i1 s1 w1 v1], b as [i2 s2 w2 v2]. unfold conf_eqb, onat_eqb. cbn.
  destruct (Nat.eqb_spec i1 i2), (names_eqb_spec s1 s2), (Bool.eqb_spec v1 v2), w1 as [x|], w2 as [y|];
    try destruct (Nat.eqb_spec x y); constructor; congruence.
Qed.

Lemma oconf_eqb_spec a b : reflect (a = b) (oconf_eqb a b).
Proof. destruct a as [x|], b as [y|]; cbn; try destruct (conf_eqb_spec x y); constructor; congruence. Qed.

Lemma name_eqb_refl n : name_eqb n n = true.
Proof. now destruct (name_eqb_spec n n). Qed.

Lemma name_eqb_neq a b : name_eqb a b = false -> a <> b.
Proof. now destruct (name_eqb_spec a b). Qed.

Lemma conf_eqb_refl c : conf_eqb c c = true.
Proof. now destruct (conf_eqb_spec c c). Qed.

Lemma oconf_eqb_refl c : oconf_eqb c c = true.
Proof. now destruct (oconf_eqb_spec c c). Qed.

Lemma oconf_eqb_eq a b : oconf_eqb a b = true -> a = b.
Proof. now destruct (oconf_eqb_spec a b). Qed.

Lemma existsb_false {A} (f : A -> bool) l : existsb f l = false <-> forall x, In x l -> f x = false.
Proof.
  induction l as [|y l IH]; cbn; [tauto|]. rewrite orb_false_iff, IH. split.
  - intros [Hy Hl] x [<-|Hx]; auto.
  - auto.
Qed.

Lemma existsb_name p ps : existsb (name_eqb p) ps = true <-> In p ps.
Proof.
  rewrite existsb_exists. split.
  - intros (x & Hin & Hx). now destruct (name_eqb_spec p x) as [->|].
  - intros H. exists p. split; [exact H|apply name_eqb_refl].
Qed.

Lemma assoc_upd {V} k k' (v : V) l : assoc k' (upd k v l) = if String.eqb k' k then Some v else assoc k' l.
Proof.
  induction l as [|[k2 v2] l IH]; cbn; [reflexivity|].
  destruct (String.eqb_spec k k2) as [<-|N]; cbn; [now destruct (String.eqb k' k)|].
  rewrite IH. destruct (String.eqb_spec k' k2) as [->|_]; [|reflexivity].
  now destruct (String.eqb_spec k2 k) as [->|_].
Qed.

(* where a walk continues: a missing child behaves as the empty trie *)
Definition child (b : String.string) (t : wtrie) : wtrie :=
  match assoc b (wkids t) with Some t' => t' | None => wempty end.

Lemma wt_conf_at_empty p : wt_conf_at p wempty = None.
Proof. destruct p; reflexivity. Qed.

Lemma wt_conf_at_child b q t : wt_conf_at (b :: q) t = wt_conf_at q (child b t).
Proof.
  unfold wt_conf_at, child. cbn. destruct (assoc b (wkids t)); [reflexivity|]. symmetry. apply wt_conf_at_empty.
Qed.

Lemma child_upd x b sub c t :
  child x (WNode c (upd b sub (wkids t))) = if String.eqb x b then sub else child x t.
Proof. unfold child. cbn. rewrite assoc_upd. now destruct (String.eqb x b). Qed.

Lemma wt_conf_at_leaf b q t : wkids t = [] -> wt_conf_at (b :: q) t = None.
Proof. destruct t as [c k]. cbn. now intros ->. Qed.

(* registering p: afterwards p has configuration c and no other name has changed *)
Lemma wt_insert_spec p c : forall t,
  wt_conflict1 c t p = false ->
  exists t', wt_insert p c t = WOk t' /\
    forall q, wt_conf_at q t' = if name_eqb q p then Some c else wt_conf_at q t.
Proof.
  unfold wt_conflict1. induction p as [|b p IH]; intros t H.
  - cbn in *. destruct (wconf t) as [c'|] eqn:E.
    + destruct (conf_eqb_spec c' c) as [->|]; [|discriminate].
      exists t. split; [reflexivity|]. intros [|x q]; cbn; [exact E|reflexivity].
    + exists (WNode (Some c) (wkids t)). split; [reflexivity|].
      now intros [|x q].
  - rewrite wt_conf_at_child in H. cbn. fold (child b t).
    destruct (IH _ H) as (sub' & -> & Hq). eexists. split; [reflexivity|].
    intros [|x q]; [reflexivity|]. rewrite !wt_conf_at_child, child_upd. cbn [name_eqb].
    destruct (String.eqb_spec x b) as [->|_]; [apply Hq|reflexivity].
Qed.

Lemma wt_insert_all_spec ps c : forall t,
  wt_conflicts ps c t = false ->
  exists t', wt_insert_all ps c t = WOk t' /\
    forall q, wt_conf_at q t' = if existsb (name_eqb q) ps then Some c else wt_conf_at q t.
Proof.
  unfold wt_conflicts. induction ps as [|p ps IH]; intros t Hc; [now exists t|].
  cbn in Hc. apply orb_false_iff in Hc as [Hc1 Hc2].
  destruct (wt_insert_spec p c t Hc1) as (t1 & E1 & Hq1). cbn. rewrite E1.
  destruct (IH t1) as (t' & E & Hq).
  - (* a name that conflicts after the insertion conflicted before it *)
    rewrite existsb_false in *. intros p' Hin. specialize (Hc2 p' Hin). unfold wt_conflict1 in *.
    rewrite Hq1. destruct (name_eqb p' p); [now rewrite conf_eqb_refl|exact Hc2].
  - exists t'. split; [exact E|]. intros q. rewrite Hq, Hq1.
    now destruct (name_eqb q p), (existsb (name_eqb q) ps).
Qed.

Lemma wt_deepest_child b n t acc :
  wt_deepest (b :: n) t acc
  = wt_deepest n (child b t) (match wconf (child b t) with Some c => Some c | None => acc end).
Proof. unfold child. cbn. destruct (assoc b (wkids t)); [reflexivity|]. now destruct n. Qed.

Lemma wt_deepest_nearest n : forall t pre r acc,
  (forall b q, wt_conf_at (b :: q) t = lookup (pre ++ b :: q) r) ->
  wt_deepest n t acc = nearest pre n r acc.
Proof.
  induction n as [|b n IH]; intros t pre r acc H; [reflexivity|].
  rewrite wt_deepest_child. cbn [nearest]. rewrite <- (H b []), wt_conf_at_child.
  apply IH. intros b' q. rewrite <- app_assoc, <- wt_conf_at_child. apply (H b (b' :: q)).
Qed.

Lemma bt_black_leaf n : bt_black n BLeaf = true.
Proof. destruct n; reflexivity. Qed.

(* the model's case for a one-component name is an instance of the general one *)
Lemma bt_insert_cons b p kids :
  bt_insert (b :: p) (BNode kids)
  = BNode (upd b (bt_insert p (match assoc b kids with Some t' => t' | None => BNode [] end)) kids).
Proof. destruct p; [|reflexivity]. cbn. now destruct (assoc b kids) as [[|]|]. Qed.

Lemma bt_insert_black p : forall t n,
  bt_black n (bt_insert p t) = bt_black n t || is_prefix p n.
Proof.
  induction p as [|b p IH]; intros [|kids] n; try (cbn; now rewrite ?bt_black_leaf, ?orb_true_r).
  rewrite bt_insert_cons. destruct n as [|x n]; [reflexivity|]. cbn [bt_black is_prefix].
  rewrite assoc_upd, (String.eqb_sym b x). destruct (String.eqb_spec x b) as [->|_]; cbn [andb]; [|now rewrite orb_false_r].
  rewrite IH. destruct (assoc b kids); [reflexivity|]. now destruct n.
Qed.

Lemma blacklist_all_black ps : forall t n,
  bt_black n (blacklist_all ps t) = bt_black n t || existsb (fun p => is_prefix p n) ps.
Proof.
  unfold blacklist_all. induction ps as [|p ps IH]; intros t n; cbn; [now rewrite orb_false_r|].
  rewrite IH, bt_insert_black. now rewrite orb_assoc.
Qed.

Lemma existsb_add_skip (f : name -> bool) ps : forall sk,
  existsb f (add_skip ps sk) = existsb f sk || existsb f ps.
Proof.
  unfold add_skip. induction ps as [|p ps IH]; intros sk; cbn; [now rewrite orb_false_r|].
  rewrite IH. destruct (existsb (name_eqb p) sk) eqn:E; [|cbn; now rewrite orb_assoc, (orb_comm (f p))].
  destruct (f p) eqn:Ef; [|reflexivity].
  apply existsb_name in E. assert (H : existsb f sk = true) by (apply existsb_exists; eauto). now rewrite H.
Qed.

Lemma fold_left_noop {A B} (f : A -> B -> A) l a : (forall x, In x l -> f a x = a) -> fold_left f l a = a.
Proof.
  induction l as [|x l IH]; intros H; cbn; [reflexivity|].
  rewrite (H x) by now left. apply IH. intros; apply H; now right.
Qed.

Lemma add_skip_idem ps sk : add_skip ps (add_skip ps sk) = add_skip ps sk.
Proof.
  apply fold_left_noop. intros p Hin.
  now rewrite existsb_add_skip, (proj2 (existsb_name p ps) Hin), orb_true_r.
Qed.

Lemma lookup_add_reg ps c : forall r q,
  lookup q (add_reg ps c r)
  = match lookup q r with Some c' => Some c' | None => if existsb (name_eqb q) ps then Some c else None end.
Proof.
  unfold add_reg. induction ps as [|p ps IH]; intros r q; cbn [fold_left existsb]; [now destruct (lookup q r)|].
  rewrite IH. destruct (lookup p r) eqn:E; cbn [lookup]; destruct (name_eqb_spec q p) as [->|_]; cbn;
    try reflexivity; now rewrite E.
Qed.

(* without a conflict, registration on the specification has the closed form it has on the trie *)
Lemma add_reg_spec ps c r q :
  conflicts ps c r = false ->
  lookup q (add_reg ps c r) = if existsb (name_eqb q) ps then Some c else lookup q r.
Proof.
  unfold conflicts. rewrite existsb_false, lookup_add_reg. intros Hc.
  destruct (lookup q r) as [c0|] eqn:El, (existsb (name_eqb q) ps) eqn:Eq; try reflexivity.
  (* q is registered and named again: the pre-check found the two configurations equal *)
  apply existsb_name, Hc in Eq. rewrite El in Eq. now destruct (conf_eqb_spec c0 c) as [->|].
Qed.

Lemma lookup_add_reg_in ps c r p : In p ps -> lookup p (add_reg ps c r) <> None.
Proof. intros H. rewrite lookup_add_reg, (proj2 (existsb_name p ps) H). now destruct (lookup p r). Qed.

Lemma add_reg_idem ps c r : add_reg ps c (add_reg ps c r) = add_reg ps c r.
Proof.
  apply fold_left_noop. intros p Hin. pose proof (lookup_add_reg_in ps c r p Hin). now destruct (lookup p _).
Qed.

(* what the public API guarantees about its arguments: a registration names
   at least one package and every package name has at least one component
   ('x'.split('.') is never empty; make_package_names_from_args rejects an
   empty iterable) *)
Definition names_ok (ps : list name) : Prop := ps <> [] /\ forall p, In p ps -> p <> [].

Definition op_ok (o : op) : Prop :=
  match o with OPkgs ps _ => names_ok ps | _ => True end.

(* R_reg speaks of names b :: q, not of q <> []: both sides then compute past the root, so a trie
   whose root configuration is replaced satisfies it by conversion *)
Record R (s : state) (a : spec) : Prop := {
  R_all : wconf (wl s) = s_all a;
  R_reg : forall b q, wt_conf_at (b :: q) (wl s) = lookup (b :: q) (s_reg a);
  R_skip : forall n, bt_black n (bl s) = existsb (fun sk => is_prefix sk n) (s_skip a);
  R_hook : hook s = s_hook a;
  R_stack : stack s = s_stack a;
  R_kids : wkids (wl s) = [] <-> s_reg a = []
}.

Lemma R_init builtin : R (init builtin) (spec_init builtin).
Proof.
  split; cbn; auto; try tauto.
  - intros [|x n]; induction builtin as [|b bs IH]; cbn; auto.
    rewrite (String.eqb_sym b x). destruct (String.eqb x b); cbn; [now rewrite bt_black_leaf|exact IH].
Qed.

Lemma skip_agree ps b sk :
  (forall n, bt_black n b = existsb (fun s => is_prefix s n) sk) ->
  forall n, bt_black n (blacklist_all ps b) = existsb (fun s => is_prefix s n) (add_skip ps sk).
Proof. intros H n. now rewrite blacklist_all_black, existsb_add_skip, H. Qed.

Lemma hook_all_sim ch s a :
  R s a ->
  R (fst (hook_all ch s)) (fst (spec_all ch a)) /\ snd (hook_all ch s) = snd (spec_all ch a).
Proof.
  intros [Ha Hr Hs Hh Hst Hk]. unfold hook_all, spec_all. rewrite <- Ha.
  destruct (wconf (wl s)) as [c'|] eqn:E; [destruct (conf_eqb c' ch)|]; cbn; (split; [|reflexivity]);
    split; cbn; auto using skip_agree; congruence.
Qed.

Lemma is_trie_agree s a : R s a -> is_packages_trie s = spec_registered a.
Proof.
  intros [Ha Hr Hs Hh Hst Hk]. unfold is_packages_trie, spec_registered. rewrite Ha.
  destruct (s_all a); [reflexivity|].
  destruct (wkids (wl s)), (s_reg a); auto; [apply proj1 in Hk|apply proj2 in Hk]; now specialize (Hk eq_refl).
Qed.

Lemma conflicts_agree ps c t r :
  (forall p, In p ps -> wt_conf_at p t = lookup p r) -> wt_conflicts ps c t = conflicts ps c r.
Proof.
  unfold wt_conflicts, conflicts, wt_conflict1. induction ps as [|p ps IH]; intros H; cbn; [reflexivity|].
  rewrite IH, H by (intros; apply H; now right) || now left. reflexivity.
Qed.

Theorem step_sim s a o :
  R s a -> op_ok o ->
  R (fst (step s o)) (fst (spec_step a o)) /\ snd (step s o) = snd (spec_step a o).
Proof.
  intros HR Hok. pose proof HR as [Ha Hr Hs Hh Hst Hk].
  assert (Hroot : forall c h st, R {| wl := WNode c (wkids (wl s)); bl := bl s; hook := h; stack := st |}
                                   {| s_all := c; s_reg := s_reg a; s_skip := s_skip a; s_hook := h; s_stack := st |}).
  { intros c h st. now split. }
  destruct o as [c|ps c|c|]; cbn [step spec_step].
  - now apply hook_all_sim.
  - destruct Hok as [Hne Hall]. generalize (hookable c). intros ch.
    assert (Ec : wt_conflicts ps ch (wl s) = conflicts ps ch (s_reg a)).
    { apply conflicts_agree. intros [|b q] Hin; [now apply Hall in Hin|apply Hr]. }
    rewrite <- Ec. destruct (wt_conflicts ps ch (wl s)) eqn:Et; [now split|]. symmetry in Ec.
    destruct (wt_insert_all_spec ps ch (wl s) Et) as (t' & -> & Hq).
    cbn. split; [|reflexivity].
    assert (Hr' : forall b q, wt_conf_at (b :: q) t' = lookup (b :: q) (add_reg ps ch (s_reg a))).
    { intros b q. now rewrite Hq, (add_reg_spec ps ch _ _ Ec), Hr. }
    split; cbn; auto using skip_agree.
    + (* no name is empty, so the root keeps its configuration *)
      rewrite <- Ha. change (wt_conf_at [] t' = wt_conf_at [] (wl s)). rewrite Hq.
      destruct (existsb (name_eqb []) ps) eqn:Eb; [|reflexivity]. apply existsb_name in Eb. now apply Hall in Eb.
    + (* the first name of ps is now registered, on both sides *)
      destruct ps as [|[|b q] ps]; [congruence|now destruct (Hall [] (or_introl eq_refl))|].
      pose proof (lookup_add_reg_in (_ :: ps) ch (s_reg a) (b :: q) (or_introl eq_refl)) as Hl.
      split; intros E; destruct Hl; [|now rewrite E]. rewrite <- Hr'. now apply wt_conf_at_leaf.
  - rewrite <- Hh, <- Ha, <- Hst. apply hook_all_sim, Hroot.
  - rewrite <- Hst, <- Ha. destruct (stack s) as [|[old ch] rest]; [now split|].
    destruct (oconf_eqb (wconf (wl s)) (Some ch)).
    + rewrite <- Hh. rewrite (is_trie_agree _ _ (Hroot old (hook s) rest)).
      destruct (spec_registered _); cbn; (split; [|reflexivity]); apply Hroot.
    + cbn. split; [|reflexivity]. split; cbn; auto.
Qed.

Lemma run_cons s o ops :
  run s (o :: ops) = (fst (run (fst (step s o)) ops), snd (step s o) :: snd (run (fst (step s o)) ops)).
Proof. cbn. now destruct (step s o), (run _ ops). Qed.

Lemma spec_run_cons a o ops :
  spec_run a (o :: ops)
  = (fst (spec_run (fst (spec_step a o)) ops), snd (spec_step a o) :: snd (spec_run (fst (spec_step a o)) ops)).
Proof. cbn. now destruct (spec_step a o), (spec_run _ ops). Qed.

Lemma run_sim ops : forall s a,
  R s a -> Forall op_ok ops ->
  R (fst (run s ops)) (fst (spec_run a ops)) /\ snd (run s ops) = snd (spec_run a ops).
Proof.
  induction ops as [|o ops IH]; intros s a HR Hok; [now split|].
  inversion Hok as [|? ? Ho Hops]; subst. rewrite run_cons, spec_run_cons. cbn [fst snd].
  destruct (step_sim s a o HR Ho) as [HR1 ->]. destruct (IH _ _ HR1 Hops) as [HR2 ->]. now split.
Qed.

Lemma get_conf_sim s a n : R s a -> get_conf s n = spec_get_conf a n.
Proof.
  intros [Ha Hr Hs _ _ _]. unfold get_conf, spec_get_conf. rewrite Hs, Ha.
  destruct (existsb _ _); [reflexivity|]. apply wt_deepest_nearest. exact Hr.
Qed.

Theorem refines builtin ops queries :
  Forall op_ok ops ->
  snd (run (init builtin) ops) = snd (spec_run (spec_init builtin) ops) /\
  observe (fst (run (init builtin) ops)) queries
  = spec_observe (fst (spec_run (spec_init builtin) ops)) queries.
Proof.
  intros Hok. destruct (run_sim ops _ _ (R_init builtin) Hok) as [HR Hrs]. split; [exact Hrs|].
  unfold observe, spec_observe. f_equal; [|apply (R_hook _ _ HR)].
  apply map_ext. intros n. now apply get_conf_sim.
Qed.

Lemma nearest_acc n : forall pre r acc,
  (forall q, q <> [] -> is_prefix q n = true -> lookup (pre ++ q) r = None) ->
  nearest pre n r acc = acc.
Proof.
  induction n as [|b n IH]; intros pre r acc H; cbn; [reflexivity|].
  rewrite (H [b]); [|discriminate|cbn; now rewrite String.eqb_refl].
  apply IH. intros q Hq Hp. rewrite <- app_assoc. apply H; [discriminate|].
  cbn. now rewrite String.eqb_refl.
Qed.

Lemma nearest_app p : forall pre q r acc,
  nearest pre (p ++ q) r acc = nearest (pre ++ p) q r (nearest pre p r acc).
Proof.
  induction p as [|b p IH]; intros pre q r acc; cbn; [now rewrite app_nil_r|].
  rewrite IH. now rewrite <- app_assoc.
Qed.

Lemma nearest_last p pre r acc c :
  p <> [] -> lookup (pre ++ p) r = Some c -> nearest pre p r acc = Some c.
Proof.
  intros Hp H. destruct (exists_last Hp) as (p' & b & ->). rewrite nearest_app. cbn. now rewrite <- app_assoc, H.
Qed.

Lemma conflicts_after_add ps c r :
  conflicts ps c r = false -> conflicts ps c (add_reg ps c r) = false.
Proof.
  intros H. apply existsb_false. intros p Hin.
  now rewrite (add_reg_spec ps c r p H), (proj2 (existsb_name p ps) Hin), conf_eqb_refl.
Qed.

Theorem spec_conflict_atomic a o a1 : spec_step a o = (a1, RConflict) -> a1 = a.
Proof.
  destruct o as [c|ps c|c|]; cbn.
  - unfold spec_all. destruct (s_all a); [destruct (conf_eqb _ _)|]; intros H; now inversion H.
  - destruct (conflicts _ _ _); intros H; now inversion H.
  - discriminate.
  - destruct (s_stack a) as [|[old ch] rest]; [discriminate|].
    destruct (oconf_eqb _ _); [|discriminate]. now destruct (spec_registered _).
Qed.

(* the block discipline: the beartype_all configuration in force is the one the innermost live block entered
   with, and what that block saved is related in the same way to the blocks around it *)
Fixpoint stack_ok (cur : option conf) (st : list (option conf * conf)) : Prop :=
  match st with
  | [] => True
  | (old, ch) :: rest => cur = Some ch /\ stack_ok old rest
  end.

Definition hook_inv (a : spec) : Prop := s_hook a = spec_registered a.
Definition spec_inv (a : spec) : Prop := stack_ok (s_all a) (s_stack a) /\ hook_inv a.

(* every step, whatever its arguments, keeps the block discipline, and only entering and leaving a
   block move the stack *)
Lemma stack_ok_step a o :
  stack_ok (s_all a) (s_stack a) ->
  let a' := fst (spec_step a o) in
  stack_ok (s_all a') (s_stack a') /\
  s_stack a' = match o with
               | OEnter c => (s_all a, hookable c) :: s_stack a
               | OExit => tl (s_stack a)
               | _ => s_stack a
               end.
Proof.
  intros H. destruct o as [c|ps c|c|]; cbn [spec_step].
  - unfold spec_all. destruct (s_all a) eqn:E; [destruct (conf_eqb _ _); cbn; now rewrite ?E|]. cbn.
    destruct (s_stack a) as [|[old c0] rest]; [now split|]. now destruct H.
  - now destruct (conflicts _ _ _).
  - cbn. now repeat split.
  - destruct (s_stack a) as [|[old ch] rest] eqn:Est; [cbn; now rewrite Est|]. destruct H as [-> H]. cbn.
    rewrite conf_eqb_refl. now destruct (spec_registered _).
Qed.

Lemma hook_inv_step a o : hook_inv a -> op_ok o -> hook_inv (fst (spec_step a o)).
Proof.
  unfold hook_inv, spec_registered. intros H Hok. destruct o as [c|ps c|c|]; cbn [spec_step].
  - unfold spec_all. destruct (s_all a) eqn:E; [destruct (conf_eqb _ _); cbn; now rewrite ?E|reflexivity].
  - destruct (conflicts _ _ _); cbn; [exact H|]. destruct (s_all a); [reflexivity|].
    destruct Hok as [Hne _]. destruct ps as [|p ps]; [congruence|].
    pose proof (lookup_add_reg_in (p :: ps) (hookable c) (s_reg a) p (or_introl eq_refl)) as Hin.
    now destruct (add_reg _ _ _).
  - reflexivity.
  - destruct (s_stack a) as [|[old ch] rest]; [exact H|].
    destruct (oconf_eqb_spec (s_all a) (Some ch)) as [E|_]; [|exact H]. rewrite E in H.
    destruct (spec_registered _) eqn:Eb; cbn; [rewrite H|]; symmetry; exact Eb.
Qed.

Lemma spec_run_inv ops : forall a, spec_inv a -> Forall op_ok ops -> spec_inv (fst (spec_run a ops)).
Proof.
  induction ops as [|o ops IH]; intros a [Hs Hh] Hok; [now split|].
  inversion Hok as [|? ? Ho Hops]; subst. rewrite spec_run_cons. cbn [fst].
  apply IH; [split|exact Hops]; [now apply stack_ok_step|now apply hook_inv_step].
Qed.

(* well-nested bodies: every exit inside the body closes a block opened inside it *)
Fixpoint balanced (d : nat) (ops : list op) : bool :=
  match ops with
  | [] => Nat.eqb d 0
  | OEnter _ :: r => balanced (S d) r
  | OExit :: r => match d with 0 => false | S d' => balanced d' r end
  | _ :: r => balanced d r
  end.

(* a body balanced above [base] pops exactly the frames above it, and keeps the discipline *)
Lemma balanced_run body : forall a pre base,
  balanced (length pre) body = true -> s_stack a = pre ++ base ->
  stack_ok (s_all a) (s_stack a) ->
  let a' := fst (spec_run a body) in s_stack a' = base /\ stack_ok (s_all a') base.
Proof.
  induction body as [|o body IH]; intros a pre base Hb Hst Hok.
  - destruct pre; [|discriminate]. cbn in *. now rewrite <- Hst.
  - rewrite spec_run_cons. cbn [fst]. destruct (stack_ok_step a o Hok) as [Hok' Hs]. rewrite Hst in Hs.
    destruct o as [c|ps c|c|]; cbn in Hb.
    + now apply (IH _ pre).
    + now apply (IH _ pre).
    + now apply (IH _ ((s_all a, hookable c) :: pre)).
    + destruct pre as [|x pre']; [discriminate|]. now apply (IH _ pre').
Qed.

Lemma spec_run_app ops1 : forall a ops2,
  fst (spec_run a (ops1 ++ ops2)) = fst (spec_run (fst (spec_run a ops1)) ops2).
Proof.
  induction ops1 as [|o ops1 IH]; intros a ops2; [reflexivity|].
  cbn [app]. rewrite !spec_run_cons. apply IH.
Qed.

(* leaving a block restores the beartype_all configuration and the block stack that preceded it,
   whatever well-nested body ran inside; only the block discipline is needed *)
Theorem context_restore a c body :
  stack_ok (s_all a) (s_stack a) -> balanced 0 body = true ->
  let a' := fst (spec_run a (OEnter c :: body ++ [OExit])) in
  s_all a' = s_all a /\ s_stack a' = s_stack a.
Proof.
  intros Hok Hb. cbn zeta. rewrite spec_run_cons. cbn [fst]. rewrite spec_run_app.
  destruct (balanced_run body (fst (spec_step a (OEnter c))) [] ((s_all a, hookable c) :: s_stack a) Hb eq_refl)
    as [Hst [Hcur _]]; [now apply stack_ok_step|].
  set (a2 := fst (spec_run _ body)) in *. cbn [spec_run spec_step]. rewrite Hst, Hcur. cbn. rewrite conf_eqb_refl.
  destruct (spec_registered _); now split.
Qed.
