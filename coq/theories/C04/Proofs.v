(* C04 proofs: whenever CPython can bind a call, the values the wrapper checks against each
   annotated parameter are exactly the values passed to that parameter. *)
From Coq Require Import List Arith Bool Lia.
From BT Require Import C04.Wrap Gen.C04Templates.
Import ListNotations.

Lemma mem_In n l : mem n l = true <-> In n l.
Proof.
  unfold mem. rewrite existsb_exists. split.
  - intros (x & Hin & E). apply String.eqb_eq in E. now subst.
  - intros H. exists n. split; [exact H|apply String.eqb_refl].
Qed.

Lemma mem_app n a b : mem n (a ++ b) = mem n a || mem n b.
Proof. apply existsb_app. Qed.

Lemma nodup_app a b :
  nodup (a ++ b) = true <-> nodup a = true /\ nodup b = true /\ forall x, In x a -> ~ In x b.
Proof.
  induction a as [|y a IH]; cbn; [tauto|].
  rewrite !andb_true_iff, !negb_true_iff, IH, <- !not_true_iff_false, !mem_In, in_app_iff.
  split.
  - intros (Hy & Ha & Hb & Hd). repeat split; auto. intros x [<-|Hx]; auto.
  - intros ((Hy & Ha) & Hb & Hd). repeat split; auto. intros [Hy'|Hy']; [auto|]. exact (Hd y (or_introl eq_refl) Hy').
Qed.

Lemma nodup_move a v b : nodup (a ++ v :: b) = nodup (v :: a ++ b).
Proof.
  induction a as [|y a IH]; [reflexivity|]. cbn [app nodup]. rewrite IH. cbn [nodup].
  change (mem v (y :: a ++ b)) with (String.eqb v y || mem v (a ++ b)). rewrite !mem_app.
  change (mem y (v :: b)) with (String.eqb y v || mem y b). rewrite (String.eqb_sym v y).
  now destruct (String.eqb y v), (mem y a), (mem y b), (mem v a), (mem v b).
Qed.

(* [P] holds of every element, at its index *)
Definition each_at {A} (P : nat -> A -> Prop) (l : list A) : Prop :=
  forall j x, nth_error l j = Some x -> P j x.

Lemma each_at_app {A} (P : nat -> A -> Prop) a b :
  each_at P a -> each_at (fun j => P (List.length a + j)) b -> each_at P (a ++ b).
Proof.
  intros Ha Hb j x. destruct (Nat.ltb_spec j (List.length a)) as [L|L].
  - rewrite nth_error_app1 by exact L. apply Ha.
  - rewrite nth_error_app2 by exact L. replace j with (List.length a + (j - List.length a)) at 2 by lia. apply Hb.
Qed.

Lemma each_at_map {A B} (P : nat -> B -> Prop) (f : A -> B) l :
  each_at (fun j y => P j (f y)) l -> each_at P (map f l).
Proof.
  intros H j x. rewrite nth_error_map. destruct (nth_error l j) as [y|] eqn:E; [|discriminate].
  intros [= <-]. now apply H.
Qed.

Lemma ltb_length {A} (l : list A) i :
  Nat.ltb i (List.length l) = match nth_error l i with Some _ => true | None => false end.
Proof.
  destruct (Nat.ltb_spec i (List.length l)) as [L|L].
  - apply nth_error_Some in L. now destruct (nth_error l i).
  - apply nth_error_None in L. now rewrite L.
Qed.

Lemma b_get_app p a b : b_get p (a ++ b) = match b_get p a with Some x => Some x | None => b_get p b end.
Proof. induction a as [|[k x] a IH]; [reflexivity|]. cbn. destruct (String.eqb k p); [reflexivity|exact IH]. Qed.

(* with distinct keys, every pair of the list is the one found under its key *)
Lemma b_get_In b : forall p x, nodup (map fst b) = true -> In (p, x) b -> b_get p b = Some x.
Proof.
  induction b as [|[k y] b IH]; intros p x Hnd Hin; [destruct Hin|].
  cbn in *. apply andb_true_iff in Hnd as [Hk Hnd]. destruct Hin as [E|Hin].
  - inversion E. now rewrite String.eqb_refl.
  - destruct (String.eqb_spec k p) as [->|_]; [|auto].
    apply negb_true_iff, not_true_iff_false in Hk. destruct Hk. apply mem_In, in_map_iff. now exists (p, x).
Qed.

Lemma b_set_keys n x b : map fst (b_set n x b) = map fst b.
Proof. induction b as [|[k y] b IH]; [reflexivity|]. cbn. destruct (String.eqb k n); cbn; [reflexivity|now rewrite IH]. Qed.

Lemma b_get_set_same n x y b : b_get n b = Some y -> b_get n (b_set n x b) = Some x.
Proof.
  induction b as [|[k z] b IH]; [discriminate|]. cbn.
  destruct (String.eqb k n) eqn:E; cbn; rewrite E; auto.
Qed.

Lemma b_get_set_other n p x b : p <> n -> b_get p (b_set n x b) = b_get p b.
Proof.
  intros Hne. induction b as [|[k y] b IH]; [reflexivity|]. cbn.
  destruct (String.eqb_spec k n); cbn.
  - subst. destruct (String.eqb_spec n p); [congruence|reflexivity].
  - destruct (String.eqb k p); [reflexivity|exact IH].
Qed.

(* a parameter bound to the value passed for it, if one was *)
Definition given (o : option val) (x : bound) : bound :=
  match o with Some v => BOne v | None => x end.

Lemma bind_positional_cons p ps args :
  bind_positional (p :: ps) args
  = ((p, given (nth_error args 0) BDefault) :: fst (bind_positional ps (tl args)), snd (bind_positional ps (tl args))).
Proof. destruct args; cbn; destruct (bind_positional ps _); reflexivity. Qed.

Lemma bind_positional_spec ps : forall args,
  snd (bind_positional ps args) = skipn (List.length ps) args /\
  map fst (fst (bind_positional ps args)) = ps /\
  each_at (fun i p => In (p, given (nth_error args i) BDefault) (fst (bind_positional ps args))) ps.
Proof.
  induction ps as [|q ps IH]; intros args.
  - repeat split. intros [|i] p H; discriminate.
  - rewrite bind_positional_cons. destruct (IH (tl args)) as (Hr & Hk & Hg). cbn [fst snd map]. repeat split.
    + rewrite Hr. destruct args; [apply skipn_nil|reflexivity].
    + now rewrite Hk.
    + intros [|i] p H; cbn in H; [inversion H; now left|right].
      replace (nth_error args (S i)) with (nth_error (tl args) i) by (now destruct args, i). now apply Hg.
Qed.

(* the keyword argument that parameter p receives, if any *)
Definition kwv (s : sigma) (kws : list (name * val)) (p : name) : option val :=
  if mem p (keywordable s) then kw_get p kws else None.

(* a parameter named by a keyword must still be unset, and receives it; the others keep what they had *)
Lemma bind_keywords_spec s kws : forall b extra b' extra',
  bind_keywords s kws b extra = Some (b', extra') ->
  map fst b' = map fst b /\
  extra' = extra ++ filter (fun kv => negb (mem (fst kv) (keywordable s))) kws /\
  forall p x, b_get p b = Some x ->
    b_get p b' = Some (given (kwv s kws p) x) /\ (kwv s kws p <> None -> x = BDefault).
Proof.
  induction kws as [|[k v] kws IH]; intros b extra b' extra' H; cbn in H.
  - inversion H; subst. rewrite app_nil_r. repeat split; unfold kwv in *; now destruct (mem p _).
  - rewrite <- mem_app in H. fold (keywordable s) in H. unfold kwv in *. cbn [kw_get filter fst].
    destruct (mem k (keywordable s)) eqn:Ek.
    + destruct (b_get k b) as [[| | |]|] eqn:Eg; try discriminate.
      destruct (IH _ _ _ _ H) as (Hk & He & Hg). split; [now rewrite Hk, b_set_keys|]. split; [exact He|].
      intros p x Hx. destruct (String.eqb_spec k p) as [<-|Hne].
      * split; [|congruence].
        destruct (Hg k (BOne v) (b_get_set_same _ _ _ _ Eg)) as [Hv Hd]. rewrite Ek in *.
        (* a second keyword of the same name would have found the parameter set *)
        destruct (kw_get k kws); [now discriminate Hd|exact Hv].
      * apply Hg. now rewrite b_get_set_other by congruence.
    + destruct (s_varkw s); [|discriminate].
      destruct (IH _ _ _ _ H) as (Hk & He & Hg). split; [exact Hk|]. split; [now rewrite He, <- app_assoc|].
      intros p x Hx. specialize (Hg p x Hx). destruct (String.eqb_spec k p) as [<-|_]; [now rewrite Ek in *|exact Hg].
Qed.

Lemma kwv_keywordable s kws p : In p (keywordable s) -> kwv s kws p = kw_get p kws.
Proof. intros H. apply mem_In in H. unfold kwv. now rewrite H. Qed.

(* a keyword naming a positional-only parameter is not for it *)
Lemma kwv_posonly s kws p : sigma_ok s = true -> In p (s_posonly s) -> kwv s kws p = None.
Proof.
  unfold sigma_ok, all_names, kwv. intros H Hp. apply nodup_app in H as (_ & _ & H).
  destruct (mem p (keywordable s)) eqn:E; [|reflexivity]. apply mem_In in E. destruct (H p Hp).
  unfold keywordable in E. rewrite !in_app_iff in *. tauto.
Qed.

Lemma bind_inv s k b : bind s k = Some b ->
  let pos := bind_positional (s_posonly s ++ s_flex s) (c_args k) in
  exists b1 extra,
    bind_keywords s (c_kwargs k) (fst pos ++ map (fun p => (p, BDefault)) (s_kwonly s)) [] = Some (b1, extra) /\
    b = b1 ++ match s_varpos s with Some p => [(p, BStar (snd pos))] | None => [] end
           ++ match s_varkw s with Some p => [(p, BStarStar extra)] | None => [] end.
Proof.
  unfold bind. destruct (bind_positional _ _) as [bpos surplus]. cbn [fst snd]. intros H.
  destruct (bind_keywords s _ _ []) as [[b1 extra]|].
  - exists b1, extra. split; [reflexivity|].
    destruct surplus, (s_varpos s), (all_satisfied s b1); now inversion H.
  - destruct surplus, (s_varpos s); discriminate.
Qed.

(* the parameter names in the order [bind] lists them: *args comes after the keyword-only ones *)
Lemma keys_nodup s : sigma_ok s = true ->
  nodup (((s_posonly s ++ s_flex s) ++ s_kwonly s)
         ++ match s_varpos s with Some p => [p] | None => [] end
         ++ match s_varkw s with Some p => [p] | None => [] end) = true.
Proof.
  unfold sigma_ok, all_names. destruct (s_varpos s) as [v|]; cbn [app]; [|now rewrite <- !app_assoc].
  intros H. rewrite !app_assoc, nodup_move in H. now rewrite nodup_move, <- app_assoc.
Qed.

(* what the parameter of kind kd named p, the i-th of [iter_args], receives *)
Definition bound_of (s : sigma) (k : call) (kd : kind) (i : nat) (p : name) : bound :=
  match kd with
  | KPosOnly => given (nth_error (c_args k) i) BDefault
  | KFlex => given (nth_error (c_args k) i) (given (kw_get p (c_kwargs k)) BDefault)
  | KVarPos => BStar (skipn i (c_args k))
  | KKwOnly => given (kw_get p (c_kwargs k)) BDefault
  | KVarKw => BStarStar (filter (fun kv => negb (mem (fst kv) (keywordable s))) (c_kwargs k))
  end.

(* CPython's binding in closed form *)
Theorem bind_spec s k b : sigma_ok s = true -> bind s k = Some b ->
  each_at (fun i '(kd, p) => b_get p b = Some (bound_of s k kd i p)) (iter_args s).
Proof.
  intros Hok Hb. destruct (bind_inv s k b Hb) as (b1 & extra & Ek & ->).
  destruct (bind_positional_spec (s_posonly s ++ s_flex s) (c_args k)) as (Hsur & Hkeys & Hpos).
  destruct (bind_keywords_spec _ _ _ _ _ _ Ek) as (Hk1 & Hext & Hg).
  set (b0 := _ ++ map _ (s_kwonly s)) in *. set (B := b1 ++ _ ++ _).
  (* the keys of the binding are the parameter names, so they are distinct *)
  assert (Hnd : nodup (map fst B) = true).
  { unfold B. rewrite !map_app, Hk1. unfold b0. rewrite map_app, Hkeys, map_map, map_id.
    generalize (keys_nodup s Hok). now destruct (s_varpos s), (s_varkw s). }
  (* what a pair of b0 has become in the end *)
  assert (Hfin : forall p x, In (p, x) b0 ->
            b_get p B = Some (given (kwv s (c_kwargs k) p) x) /\ (kwv s (c_kwargs k) p <> None -> x = BDefault)).
  { intros p x Hin. unfold B in *. rewrite map_app, Hk1 in Hnd. apply nodup_app in Hnd as [Hnd _].
    rewrite b_get_app. now destruct (Hg p x (b_get_In _ _ _ Hnd Hin)) as [-> Hx]. }
  unfold iter_args. repeat apply each_at_app; rewrite ?map_length.
  - apply each_at_map. intros j p Hn. destruct (Hfin p (given (nth_error (c_args k) j) BDefault)) as [-> _].
    + apply in_or_app. left. apply Hpos. rewrite nth_error_app1; [exact Hn|]. apply nth_error_Some. congruence.
    + now rewrite (kwv_posonly s _ p Hok (nth_error_In _ _ Hn)).
  - apply each_at_map. intros j p Hn. cbn.
    destruct (Hfin p (given (nth_error (c_args k) (List.length (s_posonly s) + j)) BDefault)) as [-> Hx].
    + apply in_or_app. left. apply Hpos. rewrite nth_error_app2 by lia. now rewrite Nat.add_comm, Nat.add_sub.
    + rewrite kwv_keywordable in * by (apply in_or_app; left; exact (nth_error_In _ _ Hn)).
      (* a value passed both by position and by keyword would not have bound *)
      destruct (kw_get p (c_kwargs k)), (nth_error (c_args k) _); try reflexivity. now discriminate Hx.
  - destruct (s_varpos s) as [p|]; intros [|[|j]] x [= <-]. apply b_get_In; [exact Hnd|]. unfold B.
    apply in_or_app. right. left. cbn. now rewrite Hsur, app_length, Nat.add_0_r.
  - apply each_at_map. intros j p Hn. destruct (Hfin p BDefault) as [-> _].
    + apply in_or_app. right. apply (in_map (fun p => (p, BDefault))), (nth_error_In _ _ Hn).
    + now rewrite kwv_keywordable by (apply in_or_app; right; exact (nth_error_In _ _ Hn)).
  - destruct (s_varkw s) as [p|]; intros [|[|j]] x [= <-]. apply b_get_In; [exact Hnd|]. unfold B.
    apply in_or_app. right. apply in_or_app. right. left. now rewrite Hext.
Qed.

(* the shipped snippets select what was passed (they add an offset to the index, which is 0 in all of them) *)
Lemma localize_selects s k kd i p :
  selected (keywordable s) k (localize kd i p) = passed (bound_of s k kd i p).
Proof.
  unfold localize. rewrite Nat.add_0_r. destruct kd; cbn [selected cmp_holds bound_of]; rewrite ?ltb_length; try reflexivity.
  - now destruct (nth_error (c_args k) i).
  - now destruct (nth_error (c_args k) i), (kw_get p (c_kwargs k)).
  - now destruct (kw_get p (c_kwargs k)).
Qed.

Lemma checked_from_ext lz s k b ps : forall i,
  each_at (fun j '(kd, p) => selected (keywordable s) k (lz kd (i + j) p) = passed_to b p) ps ->
  checked_from lz s k i ps
  = flat_map (fun '((_, p) : kind * name) => if mem p (s_annotated s) then [(p, passed_to b p)] else []) ps.
Proof.
  induction ps as [|[kd q] ps IH]; intros i H; [reflexivity|]. cbn.
  rewrite <- (IH (S i)), <- (H 0 _ eq_refl), Nat.add_0_r; [reflexivity|].
  intros j [kd' p] Hn. rewrite Nat.add_succ_l, <- Nat.add_succ_r. exact (H (S j) _ Hn).
Qed.

Theorem checked_eq_expected s k b :
  sigma_ok s = true -> bind s k = Some b -> checked localize s k = expected s b.
Proof.
  (* [checked] and [expected] unfold to the two sides of [checked_from_ext], at index 0 over [iter_args s] *)
  intros Hok Hb. apply checked_from_ext. intros j [kd p] Hn. unfold passed_to.
  rewrite (bind_spec s k b Hok Hb j _ Hn). apply localize_selects.
Qed.

Lemma first_bad_spec ok rows :
  match first_bad ok rows with
  | Some (p, v) => ok p v = false /\ exists vs, In (p, vs) rows /\ In v vs
  | None => forall p vs v, In (p, vs) rows -> In v vs -> ok p v = true
  end.
Proof.
  induction rows as [|[q ws] rows IH]; cbn; [now intros|].
  destruct (find (fun v => negb (ok q v)) ws) as [w|] eqn:E.
  - apply find_some in E as [Hin Hb]. apply negb_true_iff in Hb. eauto.
  - destruct (first_bad ok rows) as [[p v]|].
    + destruct IH as (Hb & vs & Hin & Hv). eauto.
    + intros p vs v [Heq|Hin] Hv; [|eauto]. inversion Heq; subst.
      apply negb_false_iff. exact (find_none _ _ E v Hv).
Qed.

Lemma expected_rows s b p vs :
  In (p, vs) (expected s b) <-> (In p (map snd (iter_args s)) /\ mem p (s_annotated s) = true /\ vs = passed_to b p).
Proof.
  unfold expected. rewrite in_flat_map. split.
  - intros ([kd q] & Hin & H). destruct (mem q (s_annotated s)) eqn:E; [|destruct H].
    destruct H as [H|[]]. inversion H; subst. repeat split; auto. apply in_map_iff. now exists (kd, p).
  - intros (Hin & Hm & ->). apply in_map_iff in Hin as ([kd q] & Hq & Hin). cbn in Hq. subst q.
    exists (kd, p). split; [exact Hin|]. rewrite Hm. now left.
Qed.

(* every outcome of the shipped wrapper on a bindable call, said once *)
Theorem wrapper_spec s k b ok :
  sigma_ok s = true -> bind s k = Some b ->
  match wrapper wrapper_forwards_unchanged localize s k ok with
  | OViolation p v => ok p v = false /\ mem p (s_annotated s) = true /\ In v (passed_to b p)
  | OCalled k' =>
      k' = k /\ forall p v, In p (map snd (iter_args s)) -> mem p (s_annotated s) = true ->
                            In v (passed_to b p) -> ok p v = true
  | OUnknown => False
  end.
Proof.
  intros Hok Hb. unfold wrapper. rewrite (checked_eq_expected s k b Hok Hb).
  pose proof (first_bad_spec ok (expected s b)) as H. destruct (first_bad ok (expected s b)) as [[p v]|].
  - destruct H as (Hbad & vs & Hin & Hv). apply expected_rows in Hin as (_ & Hm & ->). auto.
  - cbn. split; [reflexivity|]. intros p v Hp Hm. apply H, expected_rows. auto.
Qed.

Theorem violation_is_genuine s k b ok p v :
  sigma_ok s = true -> bind s k = Some b ->
  wrapper wrapper_forwards_unchanged localize s k ok = OViolation p v ->
  ok p v = false /\ mem p (s_annotated s) = true /\ In v (passed_to b p).
Proof. intros Hok Hb H. generalize (wrapper_spec s k b ok Hok Hb). now rewrite H. Qed.
