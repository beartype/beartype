(* C08 — Wrapped coroutines and generators are indistinguishable from the originals.
   Lemmas: C08/Proofs.v.  [obj_op] (C08/AGen.v) is CPython's protocol
   on asynchronous generator objects, [wrapped] beartype's pure-Python "async yield from"; the
   template's control structure is re-read from the repository on every run
   (Gen/C08Template.v), and table-driven generator bodies are run for real, original and
   decorated, against the model (harness/props/c08.py).  Synchronous generators are wrapped by
   `return (yield from ...)` and coroutines by `return await ...`: CPython's own delegation,
   compared on the implementation only. *)
From Coq Require Import List.
From BT Require Import C08.AGen C08.Proofs Gen.C08Template.
Import ListNotations.

(* 1. For every generator body (any resumable automaton, finite or not) and every finite sequence
      of anext / asend / athrow / aclose operations in which GeneratorExit is not thrown by hand,
      and along which the body does not yield while handling GeneratorExit, the decorated
      generator produces exactly the outcomes of the original: same yielded values, same
      StopAsyncIteration, same exceptions, same None results - whether not started, suspended or
      finished. *)
Theorem C08_async_wrapper_indistinguishable : forall b ps,
  async_template_as_modelled = true ->
  no_manual_exit ps = true -> polite (OFresh b) ps = true ->
  run (wrapped b) ps = run (OFresh b) ps.
Proof. intros b ps _. apply (wrapper_indistinguishable ps (OFresh b)). Qed.
Print Assumptions C08_async_wrapper_indistinguishable.

(* 2. GeneratorExit thrown by hand into a generator that swallows it and returns is where they
      differ (known finding F28). *)
Theorem C08_manual_exit_refuted :
  run (OFresh swallowing) [OpNext; OpThrow GeneratorExit] = [OYield 1; OStop]
  /\ run (wrapped swallowing) [OpNext; OpThrow GeneratorExit] = [OYield 1; ORaise GeneratorExit]
  /\ polite (OFresh swallowing) [OpNext; OpThrow GeneratorExit] = true.
Proof. repeat split. Qed.
Print Assumptions C08_manual_exit_refuted.
