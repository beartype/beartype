(* C07 — String and postponed annotations are checked exactly like evaluated ones.
   Lemmas: C07/Proofs.v.  The model (C07/Fwd.v) is the name-resolution machine behind string
   annotations: the forward scope at decoration, proxies, their resolution order and memo at check time.  PARTIAL: parsing the
   annotation text (eval) and frame introspection are CPython's; what a resolved class then means inside a larger hint is the
   shared core's matter (C01-C03).  On every run generated programs (9 hint shapes x module / closure depth 1-3 / method of
   classes nested 1-3 deep, decorated per method or per class x quoted, partly quoted, postponed and evaluated spellings x
   defined before decoration, after it, after the first call, never) are executed and their verdicts compared with the model
   and with the evaluated hint (harness/props/c07.py). *)
From Coq Require Import List.
From BT Require Import C07.Fwd C07.Proofs.
Import ListNotations.

(* 1. A name Python itself can see at the point of definition (class body, enclosing function, module, builtins) means in the
      string exactly what it means evaluated, for every later history of definitions, redefinitions and calls. *)
Theorem C07_string_eq_evaluated : forall w builtins globals plocals s n c st es,
  lookup n (s_class_names s) = None ->
  py_lookup builtins globals plocals s n = Some c ->
  run w (decorate builtins globals plocals s n) n st es = map (evaluated w c) (calls es).
Proof.
  intros w builtins globals plocals s n c st es Hn Hp. apply decorate_bound.
  unfold scope_lookup. rewrite Hn. exact Hp.
Qed.
Print Assumptions C07_string_eq_evaluated.

(* 2. The class being defined can be named by its methods (class decoration). *)
Theorem C07_self_reference : forall w builtins globals plocals s n c st es,
  lookup n (s_class_attrs s) = None -> lookup n (s_class_names s) = Some c ->
  run w (decorate builtins globals plocals s n) n st es = map (evaluated w c) (calls es).
Proof.
  intros w builtins globals plocals s n c st es Ha Hn. apply decorate_bound. unfold scope_lookup. now rewrite Ha, Hn.
Qed.
Print Assumptions C07_self_reference.

(* 3. A name nobody has defined raises the forward-reference exception at the check that needs it and leaves no trace. *)
Theorem C07_unresolved_raises : forall w n st oc,
  memo st = None -> lookup n (globals st) = None ->
  step w (Proxy false) n st (Call oc) = (st, Some FwdRefError).
Proof. intros w n st oc Hm Hg. cbn [step]. unfold resolve. now rewrite Hm, Hg. Qed.
Print Assumptions C07_unresolved_raises.

Theorem C07_unresolved_raises_nested : forall w n st oc,
  memo st = None -> lookup n (globals st) = None -> parent_alive st = true -> lookup n (parent_locals st) = None ->
  step w (Proxy true) n st (Call oc) = (st, Some FwdRefError).
Proof. intros w n st oc Hm Hg Ha Hl. cbn [step]. unfold resolve. now rewrite Hm, Hg, Ha, Hl. Qed.
Print Assumptions C07_unresolved_raises_nested.

(* 4. Once defined (module global, or local of the still running enclosing function) the next check is the evaluated one,
      without re-decoration; and it stays that, like an evaluated annotation. *)
Theorem C07_deferred_global : forall w hp n st c oc,
  memo st = None -> lookup n (globals st) = Some c ->
  snd (step w (Proxy hp) n st (Call oc)) = Some (evaluated w c oc) /\
  memo (fst (step w (Proxy hp) n st (Call oc))) = Some (RReal c).
Proof. intros w hp n st c oc Hm Hg. cbn [step]. unfold resolve. rewrite Hm, Hg. split; reflexivity. Qed.
Print Assumptions C07_deferred_global.

Theorem C07_deferred_local : forall w n st c oc,
  memo st = None -> lookup n (globals st) = None -> parent_alive st = true -> lookup n (parent_locals st) = Some c ->
  snd (step w (Proxy true) n st (Call oc)) = Some (evaluated w c oc) /\
  memo (fst (step w (Proxy true) n st (Call oc))) = Some (RReal c).
Proof. intros w n st c oc Hm Hg Ha Hl. cbn [step]. unfold resolve. rewrite Hm, Hg, Ha, Hl. split; reflexivity. Qed.
Print Assumptions C07_deferred_local.

Theorem C07_resolved_is_sticky : forall w hp n c es st,
  memo st = Some (RReal c) -> run w (Proxy hp) n st es = map (evaluated w c) (calls es).
Proof. intros w hp n c es st Hm. now apply settled_run. Qed.
Print Assumptions C07_resolved_is_sticky.

(* 5. The whole life of a module-level deferred name, for every history. *)
Theorem C07_module_life : forall w n es st,
  (memo st = None \/ exists c, memo st = Some (RReal c)) ->
  run w (Proxy false) n st es = spec_module w n (globals st) (memo_cls (memo st)) es.
Proof.
  intros w n es. induction es as [|e es IH]; intros st Hm; [reflexivity|].
  destruct e as [m d|m d| |oc]; cbn [run step spec_module]; try (now rewrite IH).
  unfold resolve. destruct Hm as [Hm|[c Hm]]; rewrite Hm; cbn [memo_cls negb judge].
  - destruct (lookup n (globals st)) as [c|] eqn:Hg; cbn [judge]; rewrite IH; cbn [memo memo_cls globals]; eauto. now rewrite Hm.
  - rewrite IH; cbn [memo]; eauto.
Qed.
Print Assumptions C07_module_life.

(* 6. Where the code departs from the property (machine-checked witnesses, replayed on the implementation every run):
      nested callables whose enclosing frame is gone get a name-matching stand-in instead of an exception (F38), the stand-in
      is remembered after the name is defined (F38), and a class defined late in a function that has returned is matched by
      name only (F39). *)
Theorem C07_nested_unresolved_refuted :
  run w0 (Proxy true) 7 gone [Call 3] = [Fail] /\ run w0 (Proxy false) 7 gone [Call 3] = [FwdRefError].
Proof. split; reflexivity. Qed.
Print Assumptions C07_nested_unresolved_refuted.

Theorem C07_fake_sticky_refuted :
  run w0 (Proxy true) 7 gone [Call 3; DefGlobal 7 1; Call 1; Call 4] = [Fail; Pass; Pass] /\ evaluated w0 1 4 = Fail.
Proof. split; reflexivity. Qed.
Print Assumptions C07_fake_sticky_refuted.

Theorem C07_late_local_refuted :
  run w0 (Proxy true) 7 {| globals := []; parent_alive := true; parent_locals := []; memo := None |}
      [DefLocal 7 1; ParentReturns; Call 1; Call 2; Call 3; Call 4] = [Pass; Pass; Fail; Pass] /\
  map (evaluated w0 1) [1; 2; 3; 4] = [Pass; Pass; Fail; Fail].
Proof. split; reflexivity. Qed.
Print Assumptions C07_late_local_refuted.
