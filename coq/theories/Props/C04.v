(* C04 — The wrapper is transparent and checks each argument against its own parameter.
   Lemmas: C04/Proofs.v.  [bind] (C04/Wrap.v) is CPython's
   argument-binding rule written from the language reference and compared with CPython itself on
   every run; [localize] and [wrapper_forwards_unchanged] (Gen/C04Templates.v) are regenerated
   from beartype/_data/check/code/func/datacodefuncwrap.py on every run; [checked] (the
   enumeration of parameters with their indices) is compared with the isinstance checks the
   real wrapper performs (harness/props/c04.py). *)
From Coq Require Import List String.
From BT Require Import C04.Wrap C04.Proofs Gen.C04Templates.
Import ListNotations.
Local Open Scope string_scope.

(* 1. For every well-formed signature and every call CPython can bind, the wrapper checks,
      against each annotated parameter and in parameter order, exactly the values CPython
      binds to that parameter — however they were passed — and nothing else. *)
Theorem C04_checks_own_parameter : forall s k b,
  sigma_ok s = true -> bind s k = Some b -> checked localize s k = expected s b.
Proof. exact checked_eq_expected. Qed.
Print Assumptions C04_checks_own_parameter.

(* 2. Unpassed defaults are not checked. *)
Theorem C04_defaults_unchecked : forall s k b p,
  sigma_ok s = true -> bind s k = Some b -> b_get p b = Some BDefault ->
  forall vs, In (p, vs) (checked localize s k) -> vs = [].
Proof.
  intros s k b p Hok Hb Hd vs. rewrite (checked_eq_expected s k b Hok Hb). intros Hin.
  apply expected_rows in Hin as (_ & _ & ->). unfold passed_to. now rewrite Hd.
Qed.
Print Assumptions C04_defaults_unchecked.

(* 3. If every passed value satisfies its parameter's annotation the original is called, once,
      with exactly the call the wrapper received. *)
Theorem C04_transparent : forall s k b ok,
  sigma_ok s = true -> bind s k = Some b ->
  (forall p v, mem p (s_annotated s) = true -> In v (passed_to b p) -> ok p v = true) ->
  wrapper wrapper_forwards_unchanged localize s k ok = OCalled k.
Proof.
  intros s k b ok Hok Hb Hall. generalize (wrapper_spec s k b ok Hok Hb).
  destruct (wrapper _ _ s k ok) as [p v|k'|]; [|now intros [-> _]|easy].
  intros (Hbad & Hm & Hv). now rewrite (Hall p v Hm Hv) in Hbad.
Qed.
Print Assumptions C04_transparent.

(* 4. If some value passed to an annotated parameter fails its annotation, the wrapper raises
      a parameter violation (for a value that genuinely fails) and the original never runs. *)
Theorem C04_failing_never_runs : forall s k b ok p v,
  sigma_ok s = true -> bind s k = Some b ->
  In p (map snd (iter_args s)) -> mem p (s_annotated s) = true -> In v (passed_to b p) -> ok p v = false ->
  exists p' v', wrapper wrapper_forwards_unchanged localize s k ok = OViolation p' v'
                /\ ok p' v' = false /\ mem p' (s_annotated s) = true /\ In v' (passed_to b p').
Proof.
  intros s k b ok p v Hok Hb Hp Hm Hv Hbad. generalize (wrapper_spec s k b ok Hok Hb).
  destruct (wrapper _ _ s k ok) as [p' v'|k'|]; [eauto| |easy].
  intros [_ Hall]. now rewrite (Hall p v Hp Hm Hv) in Hbad.
Qed.
Print Assumptions C04_failing_never_runs.

Theorem C04_violation_is_genuine : forall s k b ok p v,
  sigma_ok s = true -> bind s k = Some b ->
  wrapper wrapper_forwards_unchanged localize s k ok = OViolation p v ->
  ok p v = false /\ mem p (s_annotated s) = true /\ In v (passed_to b p).
Proof. exact violation_is_genuine. Qed.
Print Assumptions C04_violation_is_genuine.

(* 5. A call that cannot bind never runs the original's body: the wrapper either raises a
      parameter violation or forwards the very call, which CPython then rejects. *)
Theorem C04_unbindable_never_runs : forall s k ok fwd lz,
  bind s k = None -> body_runs s (wrapper fwd lz s k ok) = 0.
Proof.
  intros s k ok fwd lz Hb. unfold wrapper. destruct (first_bad ok (checked lz s k)) as [[p v]|]; [reflexivity|].
  destruct fwd; [|reflexivity]. cbn. now rewrite Hb.
Qed.
Print Assumptions C04_unbindable_never_runs.

Theorem C04_only_the_given_call : forall s k ok fwd lz k',
  wrapper fwd lz s k ok = OCalled k' -> k' = k.
Proof.
  intros s k ok fwd lz k'. unfold wrapper. destruct (first_bad ok (checked lz s k)) as [[p v]|]; [discriminate|].
  destruct fwd; [|discriminate]. now intros H; inversion H.
Qed.
Print Assumptions C04_only_the_given_call.

(* Non-vacuity: def f(a, /, b, c=.., *args, d, **kwargs) with everything annotated, called as
   f(1, 2, 3, 4, 5, d=6, a=7, z=8): the keyword "a" collides with a positional-only name. *)
Example C04_example :
  let s := {| s_posonly := ["a"]; s_flex := ["b"; "c"]; s_varpos := Some "args"; s_kwonly := ["d"];
              s_varkw := Some "kwargs"; s_defaults := ["c"]; s_annotated := ["a"; "b"; "c"; "args"; "d"; "kwargs"] |} in
  let k := {| c_args := [1; 2; 3; 4; 5]; c_kwargs := [("d", 6); ("a", 7); ("z", 8)] |} in
  sigma_ok s = true /\
  (exists b, bind s k = Some b) /\
  checked localize s k = [("a", [1]); ("b", [2]); ("c", [3]); ("args", [4; 5]); ("d", [6]); ("kwargs", [7; 8])] /\
  bind s {| c_args := [1]; c_kwargs := [("b", 2); ("b", 3)] |} = None /\
  bind s {| c_args := []; c_kwargs := [("a", 1); ("b", 2); ("d", 3)] |} = None.
Proof. cbv zeta. repeat split. eexists. vm_compute. reflexivity. Qed.
