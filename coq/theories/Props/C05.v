(* C05 — The import hook preserves program meaning and equals writing the checks by hand.
   Lemmas: C05/Proofs.v.  [transform] (C05/Ast.v) models the AST
   transformation of beartype.claw over a statement grammar with arbitrary nesting (functions, async
   functions, classes, compound statements with several suites, annotated assignments to names,
   attributes and subscripts, existing decorator stacks, docstrings and __future__ imports); on
   every run generated modules go through the real BeartypeNodeTransformer, the result is read
   back into the grammar and compared with the model's (harness/props/c05.py). *)
From Coq Require Import List.
From BT Require Import C05.Ast C05.Proofs.
Import ListNotations.

(* 1. The transformed module differs from the original only by what the hook adds: removing the
      added import, the added check calls and the added decorators gives the module back. *)
Theorem C05_only_adds : forall cf m, forallb original m = true -> flat_map erase (transform cf m) = m.
Proof.
  intros cf m Ho. rewrite erase_transform_any. apply (flat_map_id original); [|exact Ho].
  apply Forall_all, erase_original.
Qed.
Print Assumptions C05_only_adds.

(* 2. The one import is placed after the docstring and the __future__ imports (a module holding
      nothing else gets none). *)
Theorem C05_import_after_prologue : forall cf m pro s rest,
  split_prologue m = (pro, s :: rest) ->
  transform cf m = pro ++ SImportStar (line_of s) :: flat_map (visit cf ScModule) (s :: rest)
  /\ forallb is_prologue pro = true /\ is_prologue s = false.
Proof.
  intros cf m pro s rest E. pose proof (split_prologue_spec m) as H. unfold transform. rewrite E in *.
  now split.
Qed.
Print Assumptions C05_import_after_prologue.

Theorem C05_no_import_for_prologue_only : forall cf m, split_prologue m = (m, []) -> transform cf m = m.
Proof.
  intros cf m E. pose proof (split_prologue_spec m) as H. unfold transform. rewrite E in *.
  now apply prologue_visit.
Qed.
Print Assumptions C05_no_import_for_prologue_only.

(* 3. No line number is introduced: every node of the transformed module, added ones included,
      carries a line number of the original module. *)
Theorem C05_keeps_lines : forall cf m, incl (flat_map lines (transform cf m)) (flat_map lines m).
Proof.
  intros cf m.
  destruct (transform_split cf m) as (pro & rest & -> & ->). rewrite !flat_map_app.
  apply incl_app; [apply incl_appl, incl_refl|apply incl_appr]. apply incl_app.
  - (* the import carries the line of the first statement after the prologue *)
    destruct rest as [|s rest]; [easy|]. intros x [<-|[]]. cbn. apply in_or_app. left. destruct s; cbn; auto.
  - exact (keeps_list (incl_refl _) (@incl_app_app _) _ (Forall_all _ (lines_visit cf) _)).
Qed.
Print Assumptions C05_keeps_lines.

(* 4. Evaluation counts: with PEP 526 checks off every original expression is evaluated exactly as
      often as before; with them on, the annotation (where Python evaluates it) and the object of
      an attribute target are evaluated a second time (known finding F29). *)
Theorem C05_evaluates_once_without_pep526 : forall cf s sc,
  pep526 cf = false -> flat_map (evals sc) (visit cf sc s) = evals sc s.
Proof. intros cf s sc H. now apply evals_visit_off. Qed.
Print Assumptions C05_evaluates_once_without_pep526.

Theorem C05_evaluates_twice_refuted :
  let cf := {| pep526 := true; place_func := PLast; place_type := PLast; nondefault := false |} in
  let m := [SAnn (TAttr 1 2) 3 (Some 4) 10] in
  flat_map (evals ScModule) m = [1; 3; 4]
  /\ flat_map (evals ScModule) (transform cf m) = [1; 3; 4; 1; 3].
Proof. split; reflexivity. Qed.
Print Assumptions C05_evaluates_twice_refuted.

Example C05_example :
  let cf := {| pep526 := true; place_func := PLast; place_type := PFirst; nondefault := true |} in
  transform cf [SDoc 1; SFuture 2;
                SClass 7 [DUser 0] [SFunc false 1 [] true [SAnn (TName 1) 2 (Some 3) 6] 5; SAnn (TName 4) 2 (Some 3) 7] 4;
                SFunc true 2 [DUser 1] true [] 9; SFunc false 3 [] false [] 11]
  = [SDoc 1; SFuture 2; SImportStar 4;
     SClass 7 [DUser 0; DBear true 4]
       [SFunc false 1 [] true [SAnn (TName 1) 2 (Some 3) 6; SCheck (TName 1) 2 true 6] 5; SAnn (TName 4) 2 (Some 3) 7] 4;
     SFunc true 2 [DBear true 9; DUser 1] true [] 9; SFunc false 3 [] false [] 11].
Proof. reflexivity. Qed.
