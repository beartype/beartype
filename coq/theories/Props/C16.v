(* C16 — Hooked and unhooked bytecode caches never mix; cached bytecode is never stale.
   Lemmas: C16/Proofs.v.  The model (C16/Cache.v: two cache slots per
   module selected by beartype's marker, CPython's stamp validation, the loader's four steps around the
   patched global) is compared with sequences of real interpreter runs on every run
   (harness/props/c16.py). *)
From Coq Require Import List.
From BT Require Import C16.Cache C16.Proofs.
Import ListNotations.

(* 1. Over every sequence of interpreter runs (any hook state and configuration per run, any source
      edits between runs, starting from empty caches) each run loads bytecode that is transformed
      iff the module is hooked in that run, compiled from the current source. *)
Theorem C16_never_mix_never_stale_source : forall rs, Forall2 run_ok rs (runs fs0 rs).
Proof. intros rs. apply runs_never_mix, inv_slots, slots0. Qed.
Print Assumptions C16_never_mix_never_stale_source.

(* 1w. The same when some of the interpreters run with bytecode writing switched off (-B, PYTHONDONTWRITEBYTECODE): they
       still read the cache files earlier runs left, and what they load is transformed iff hooked, from the current source. *)
Theorem C16_never_mix_never_stale_source_nowrite : forall rs, Forall2 run_ok (map fst rs) (runsw fs0 rs).
Proof. intros rs. apply runsw_never_mix, inv_slots, slots0. Qed.
Print Assumptions C16_never_mix_never_stale_source_nowrite.

(* 2. It is exactly the current configuration applied to the current source whenever all hooked runs
      agree on the options the AST transformation depends on ... *)
Theorem C16_exact_single_akey : forall k rs,
  (forall c s, In (Some c, s) rs -> akey c = k) ->
  runs fs0 rs = map (fun r => expected (fst r) (snd r)) rs.
Proof. intros k rs H. apply (runs_exact_single_akey k); [apply slots0|exact H]. Qed.
Print Assumptions C16_exact_single_akey.

(* ... and refuted otherwise: the marker does not depend on the configuration (known finding F16a). *)
Theorem C16_conf_stale_refuted :
  let a := {| akey := 1; rkey := 0 |} in
  let b := {| akey := 0; rkey := 0 |} in
  runs fs0 [(Some a, 1); (Some b, 1)] <> map (fun r => expected (fst r) (snd r)) [(Some a, 1); (Some b, 1)].
Proof. vm_compute. discriminate. Qed.
Print Assumptions C16_conf_stale_refuted.

(* 3. Concurrent imports: serialised imports keep the caches apart; an unhooked import interleaved
      with a hooked one stores untransformed bytecode under the marker, which a later hooked run
      loads (known finding F16b). *)
Theorem C16_serial_imports_keep_inv : forall hk srcH srcU fh fu,
  inv fh -> inv fu ->
  let s1 := crun hk srcH srcU [true; true; true; true; false; false] (cinit fh fu) in
  let s2 := crun hk srcH srcU [false; false; true; true; true; true] (cinit fh fu) in
  inv (fs_u s1) /\ inv (fs_h s1) /\ inv (fs_u s2) /\ inv (fs_h s2) /\ g s1 = GOrig /\ g s2 = GOrig.
Proof.
  intros hk srcH srcU fh fu Hh Hu.
  pose proof (load_via_inv MPlain None srcU fu Hu eq_refl) as Iu.
  pose proof (load_via_inv MBear (Some hk) srcH fh Hh eq_refl) as Ih.
  unfold crun. cbn [fold_left].
  (* U's load in the first schedule, by projections ([step_U_load]): the evaluation below does not get past its pair pattern *)
  rewrite (step_U_load hk srcH srcU (step hk srcH srcU false (cinit fh fu)) MPlain) by reflexivity.
  lazy -[load_via inv fst]. destruct (load_via MPlain None srcU fu), (load_via MBear (Some hk) srcH fh). cbn [fst] in *. auto 10.
Qed.
Print Assumptions C16_serial_imports_keep_inv.

Theorem C16_race_refuted :
  let hk := {| akey := 1; rkey := 0 |} in
  let final := crun hk 1 1 [true; false; false; true; true; true] (cinit fs0 fs0) in
  bear_slot (fs_u final) = Some (1, CPlain 1)
  /\ snd (run1 (fs_u final) (Some hk, 1)) <> expected (Some hk) 1.
Proof. vm_compute. split; [reflexivity|discriminate]. Qed.
Print Assumptions C16_race_refuted.
