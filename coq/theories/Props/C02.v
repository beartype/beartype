(* C02 — Guaranteed detection: violations the strategy must see are always rejected.
   Apart from C02_toplevel (about the generated code), C02_ignorable_complete (about [sat]) and
   C02_reachable_full_refuted (arithmetic on the draw alone) the statements are about [chk], which the
   generated code computes (Core/GenProofs.check_expr_correct). *)
From Coq Require Import List ZArith Bool String Lia.
From BT Require Import Gen.ClassTable Gen.SignSets.
From BT Require Import Core.PyVal Core.Expr Core.Hint Core.Check Core.Induct Core.ClassFacts Core.CheckFacts Core.GenProofs Core.Cause Core.Detect.
Import ListNotations.

Theorem C02_toplevel : forall cf r pb h x cs,
  hint_ok h = true -> wf x = true -> ignorable h = false ->
  top_classes h = Some cs -> isinst x cs = false ->
  verdict r (preds_of pb) (check_expr cf h) x = Ok false.
Proof.
  intros cf r pb h x cs Hok Hw Hig E Hi. rewrite (check_expr_correct cf r pb h x Hok Hw). unfold check. rewrite Hig.
  f_equal. destruct h; cbn [top_classes hint_ok] in *; inversion E; subst; cbn [chk]; try (now rewrite Hi).
  destruct (ignorable h); [exact Hi|].
  destruct (sign_family s) as [[| |]|]; try (now rewrite Hi). discriminate.
Qed.
Print Assumptions C02_toplevel.

Theorem C02_tuple_length : forall cf pb hs x r,
  List.length (items x) <> List.length hs -> chk cf r pb (HTuple hs) x = false.
Proof.
  intros cf pb hs x r H. rewrite chk_tuple_unfold. apply Nat.eqb_neq in H. rewrite H. now rewrite andb_false_r.
Qed.
Print Assumptions C02_tuple_length.

Theorem C02_tuple_position : forall cf pb hs x r k h',
  nth_error hs k = Some h' -> ignorable h' = false ->
  chk cf r pb h' (nth k (items x) VNone) = false -> chk cf r pb (HTuple hs) x = false.
Proof.
  intros cf pb hs x r k h' Hn Hig Hc. rewrite chk_tuple_unfold.
  rewrite (tuple_chk_position cf pb x r hs 0 k h' Hn Hig Hc). now rewrite andb_false_r.
Qed.
Print Assumptions C02_tuple_position.

Theorem C02_literal : forall cf pb vs x r,
  (forall v, In v vs -> py_eq x v = false) -> chk cf r pb (HLiteral vs) x = false.
Proof.
  intros cf pb vs x r H. cbn [chk]. rewrite (proj2 (existsb_false _ _) H). apply andb_false_r.
Qed.
Print Assumptions C02_literal.

Theorem C02_type : forall cf pb cs x r, issubcls x cs <> Some true -> chk cf r pb (HType cs) x = false.
Proof.
  intros cf pb cs x r H. cbn [chk]. destruct (issubcls x cs) as [[|]|]; [congruence| |]; now rewrite andb_false_r.
Qed.
Print Assumptions C02_type.

Theorem C02_union_none : forall cf pb hs x r,
  (forall h', In h' hs -> chk cf r pb h' x = false) -> chk cf r pb (HUnion hs) x = false.
Proof. intros cf pb hs x r H. rewrite chk_union. now apply existsb_false. Qed.
Print Assumptions C02_union_none.

Theorem C02_all_items_bad : forall cf pb s ch x r,
  ignorable ch = false -> hint_ok (HCont s ch) = true ->
  issub (type_of x) c_Collection = true -> items x <> [] ->
  (forall y, In y (items x) -> chk cf r pb ch y = false) ->
  chk cf r pb (HCont s ch) x = false.
Proof.
  intros cf pb s ch x r Hig Hok Hc Hne Hall. cbn [hint_ok] in Hok.
  destruct (sign_family s) as [fam|] eqn:Ef; [|discriminate].
  rewrite (chk_cont cf r pb s ch fam x Hig Ef), (Hall _ (cause_item_in cf r fam x Hne)), (proj2 (len0_false x) Hne).
  destruct fam; rewrite ?isinst_single, ?Hc; apply andb_false_r.
Qed.
Print Assumptions C02_all_items_bad.

(* every index below 2^32 of a sequence is reached by some 32-bit draw ... *)
Theorem C02_reachable : forall cf pb s ch x i,
  is_random cf = true -> ignorable ch = false -> sign_family s = Some FSequence ->
  i < List.length (items x) -> (Z.of_nat i < 2 ^ 32)%Z ->
  (forall r, chk cf r pb ch (nth i (items x) VNone) = false) ->
  exists r, (0 <= r < 2 ^ 32)%Z /\ chk cf r pb (HCont s ch) x = false.
Proof.
  intros cf pb s ch x i Hr Hig Hf Hi H32 Hbad. exists (Z.of_nat i). split; [lia|].
  assert (Hne : items x <> []) by (destruct (items x); [cbn in Hi; lia|discriminate]).
  rewrite (chk_cont cf _ pb s ch FSequence x Hig Hf), (proj2 (len0_false x) Hne). cbn [cause_item].
  rewrite (sample_at_index cf x i Hr Hi), Hbad. apply andb_false_r.
Qed.
Print Assumptions C02_reachable.

(* ... but "every index is reachable" is FALSE without the bound (known finding F18): *)
Definition C02_reachable_full : Prop :=
  forall (n : Z) (i : Z), (0 <= i < n)%Z -> exists r, (0 <= r < 2 ^ 32)%Z /\ (r mod n = i)%Z.

Theorem C02_reachable_full_refuted : ~ C02_reachable_full.
Proof.
  intros H. destruct (H (2 ^ 33)%Z (2 ^ 32 + 5)%Z ltac:(lia)) as (r & Hr & Hm).
  rewrite Z.mod_small in Hm by lia. lia.
Qed.
Print Assumptions C02_reachable_full_refuted.

Theorem C02_nonrandom_first : forall cf pb s ch x r,
  is_random cf = false -> ignorable ch = false -> sign_family s = Some FSequence ->
  items x <> [] -> chk cf r pb ch (first x) = false -> chk cf r pb (HCont s ch) x = false.
Proof.
  intros cf pb s ch x r Hr Hig Hf Hne Hbad.
  rewrite (chk_cont cf r pb s ch FSequence x Hig Hf), (proj2 (len0_false x) Hne). cbn [cause_item].
  unfold sample. rewrite Hr, Hbad. apply andb_false_r.
Qed.
Print Assumptions C02_nonrandom_first.

Theorem C02_accept_consistent : forall cf pb s ch x r,
  ignorable ch = false -> hint_ok (HCont s ch) = true -> issub (type_of x) c_Collection = true ->
  chk cf r pb (HCont s ch) x = true ->
  items x = [] \/ exists y, In y (items x) /\ chk cf r pb ch y = true.
Proof.
  intros cf pb s ch x r Hig Hok Hc H. destruct (items x) as [|a l] eqn:El; [now left|right]. rewrite <- El.
  destruct (existsb (chk cf r pb ch) (items x)) eqn:Ex; [apply existsb_exists in Ex; exact Ex|].
  rewrite (C02_all_items_bad cf pb s ch x r Hig Hok Hc) in H; [discriminate|now rewrite El|now apply existsb_false].
Qed.
Print Assumptions C02_accept_consistent.

Theorem C02_ignorable_complete : forall pb h x,
  ignorable h = true -> issub (type_of x) c_object = true -> sat pb h x = true.
Proof.
  intros pb h x. induction h using hint_ind2; intros Hig Ho; try discriminate Hig.
  - reflexivity.
  - apply Nat.eqb_eq in Hig. subst. cbn [sat]. now rewrite isinst_single.
  - rewrite sat_union. rewrite ignorable_union in Hig.
    apply existsb_exists in Hig as (h & Hin & Hh). apply existsb_exists. exists h. rewrite Forall_forall in H. auto.
Qed.
Print Assumptions C02_ignorable_complete.

Theorem C02_validator : forall cf pb mh vs v x r,
  In v vs -> vmean pb v x = false -> chk cf r pb (HAnnot mh vs) x = false.
Proof.
  intros cf pb mh vs v x r Hin Hv. cbn [chk]. destruct (forallb _ vs) eqn:E; [|apply andb_false_r].
  rewrite forallb_forall in E. now rewrite (E v Hin) in Hv.
Qed.
Print Assumptions C02_validator.

Example C02_demo_reachable :
  let h := HCont s_List (HCls c_int) in
  let x := VCont c_list [VInt 1; VStr "bad"; VInt 3] in
  let cf := {| is_random := true |} in
  wf x = true /\ hint_ok h = true /\
  map (fun r => chk cf r (fun _ _ => false) h x) [0; 1; 2; 4; 2 ^ 32 - 1]%Z = [true; false; true; false; true]
  /\ chk {| is_random := false |} 1 (fun _ _ => false) h x = true
  /\ chk {| is_random := false |} 1 (fun _ _ => false) h (VCont c_list [VStr "bad"; VInt 3]) = false.
Proof. vm_compute. repeat split. Qed.
