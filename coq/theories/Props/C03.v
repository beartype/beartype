(* C03 — All entry points agree; every rejection is the configured, explained violation.
   Proofs: Core/GenProofs.v (one verdict), Core/CauseProofs.v (no_desync, cause_genuine).
   Every entry point (is_bearable, die_if_unbearable, TypeHint.*, parameter and return checks)
   evaluates the one expression [check_expr cf h] generated for (hint, configuration): compared
   with beartype on all six entry points on every run.  [find_cause] models the hand-written
   explanation path of beartype/_check/error (compared with the real error path, invoked
   directly on every generated case, on every run). *)
From Coq Require Import List ZArith String.
From BT Require Import Core.PyVal Core.Expr Core.Hint Core.Check Core.GenProofs Core.Cause Core.CauseProofs.
Import ListNotations.

(* 1. One verdict: the generated expression evaluates, for every hint, well-formed object, draw
      and sampler mode, to [check] — a function of (configuration, hint, object, draw) only, not
      of the entry point — without raising. *)
Theorem C03_one_verdict : forall cf r pb h x,
  hint_ok h = true -> wf x = true ->
  verdict r (preds_of pb) (check_expr cf h) x = Ok (check cf r pb h x).
Proof. exact check_expr_correct. Qed.
Print Assumptions C03_one_verdict.

(* 2. No desynchronisation: whenever that verdict is a rejection, the explanation path re-walking
      the hint with the same draw finds a cause — under strategy O1 and under On alike — so the
      rejection surfaces as a violation, never as the internal desynchronisation error. *)
Theorem C03_rejection_is_explained : forall cf all_items r pb h y,
  hint_ok h = true -> wf y = true -> check cf r pb h y = false ->
  explain cf all_items r pb h y = SViolation.
Proof.
  intros cf ai r pb h y Hok Hw Hc. unfold explain, find_cause. unfold check in Hc.
  destruct (ignorable h); [discriminate|]. now rewrite (no_desync cf ai r pb h Hok y Hw Hc).
Qed.
Print Assumptions C03_rejection_is_explained.

(* 3. What the explanation path reports is a genuine violation of the hint's published meaning. *)
Theorem C03_explanation_is_genuine : forall cf all_items r pb h y,
  hint_ok h = true -> wf y = true -> find_cause cf all_items r pb h y = true -> sat pb h y = false.
Proof.
  intros cf ai r pb h y Hok Hw Hf. unfold find_cause in Hf. destruct (ignorable h); [discriminate|].
  destruct (sat pb h y) eqn:Hs; [|reflexivity]. now rewrite (cause_genuine cf ai r pb h Hok y Hw Hs) in Hf.
Qed.
Print Assumptions C03_explanation_is_genuine.

(* Non-vacuity: a list of ints holding a str at the sampled position is rejected and explained,
   and an accepted object has no cause. *)
Example C03_example :
  let h := HCont Gen.SignSets.s_List (HCls Gen.ClassTable.c_int) in
  let bad := VCont Gen.ClassTable.c_list [VInt 1; VStr "a"%string] in
  hint_ok h = true /\ wf bad = true
  /\ check {| is_random := true |} 1 (fun _ _ => false) h bad = false
  /\ find_cause {| is_random := true |} false 1 (fun _ _ => false) h bad = true
  /\ find_cause {| is_random := true |} false 0 (fun _ _ => false) h bad = false
  /\ find_cause {| is_random := true |} true 0 (fun _ _ => false) h bad = true.
Proof. vm_compute. repeat split. Qed.
