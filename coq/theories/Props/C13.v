(* C13 — Decorating a class equals decorating its methods; no-op cases are identities.
   Lemmas: C13/Proofs.v.  [dec_cls] / [dec_member] / [dec_func]
   (C13/Decor.v) model what @beartype does to a class dictionary; on every run generated classes
   (plain, class, static and property members, pre-decorated and @no_type_check members, nested and
   foreign classes, inheritance) are decorated for real, as a whole and member by member, and
   compared with the model and with each other call for call (harness/props/c13.py). *)
From Coq Require Import List Bool String.
From BT Require Import C13.Decor C13.Proofs.
Import ListNotations.

(* 1. Decorating a not yet decorated class is decorating each attribute the class itself defines
      (recursively for the classes nested in it; attributes referring to foreign classes and data
      are left alone; inherited attributes are not in the dictionary at all). *)
Theorem C13_class_is_memberwise : forall cf ms,
  noop cf = false ->
  dec_cls cf (Cls false ms) = Cls true (map (fun nm => (fst nm, dec_member cf (snd nm))) ms).
Proof.
  intros cf ms H. cbn [dec_cls]. rewrite H. cbn [orb]. f_equal.
  induction ms as [|[n m] ms IH]; [reflexivity|]. cbn [map fst snd]. now rewrite <- IH.
Qed.
Print Assumptions C13_class_is_memberwise.

(* 2. Idempotence: an already decorated class, member or wrapper is returned unchanged. *)
Theorem C13_idempotent : forall cf,
  (forall m, dec_member cf (dec_member cf m) = dec_member cf m) /\
  (forall c, dec_cls cf (dec_cls cf c) = dec_cls cf c).
Proof. intros cf. split; [apply dec_member_idem|apply dec_cls_idem]. Qed.
Print Assumptions C13_idempotent.

(* 3. Descriptor kinds and attribute names are kept; a wrapper exposes the original. *)
Theorem C13_keeps_kind : forall cf m, kind_of (dec_member cf m) = kind_of m.
Proof. intros cf m. now destruct m. Qed.
Print Assumptions C13_keeps_kind.

Theorem C13_keeps_names : forall cf c, map fst (members_of (dec_cls cf c)) = map fst (members_of c).
Proof.
  intros cf c. destruct c as [[] ms]; [cbn [dec_cls]; now rewrite orb_true_r|]. destruct (noop cf) eqn:E.
  - cbn [dec_cls]. now rewrite E.
  - rewrite (C13_class_is_memberwise cf ms E). cbn [members_of]. now rewrite map_map.
Qed.
Print Assumptions C13_keeps_names.

Theorem C13_wrapper_exposes_original : forall cf f g,
  dec_func cf f = Wrapper g -> f = Wrapper g \/ (f = g /\ wrapped_of (dec_func cf f) = Some f).
Proof.
  intros cf [id ann ntc|h] g; cbn [dec_func]; [|now left].
  destruct (noop cf || ntc || negb ann); [discriminate|]. intros [= <-]. now right.
Qed.
Print Assumptions C13_wrapper_exposes_original.

(* 4. Identities: unannotated and @no_type_check callables, the O0 strategy, python -O. *)
Theorem C13_identity_cases : forall cf id ann ntc,
  noop cf = true \/ ntc = true \/ ann = false -> dec_func cf (Plain id ann ntc) = Plain id ann ntc.
Proof.
  intros cf id ann ntc H. cbn [dec_func]. destruct (noop cf || ntc || negb ann) eqn:E; [reflexivity|].
  apply orb_false_iff in E as [[E1 E2]%orb_false_iff E3%negb_false_iff]. destruct H as [H|[H|H]]; congruence.
Qed.
Print Assumptions C13_identity_cases.

Theorem C13_noop_class_identity : forall cf c, noop cf = true -> dec_cls cf c = c.
Proof. intros cf [b ms] H. cbn [dec_cls]. now rewrite H. Qed.
Print Assumptions C13_noop_class_identity.

Example C13_example :
  let cf := {| strategy_O0 := false; python_O := false |} in
  let c := Cls false [("m", MFunc (Plain 1 true false)); ("u", MFunc (Plain 2 false false));
                      ("c", MClassMethod (Plain 3 true false)); ("p", MProperty (Some (Plain 4 true false)) None None);
                      ("N", MNested (Cls false [("n", MStaticMethod (Plain 5 true false))])); ("F", MForeign 9)]%string in
  dec_cls cf c
  = Cls true [("m", MFunc (Wrapper (Plain 1 true false))); ("u", MFunc (Plain 2 false false));
              ("c", MClassMethod (Wrapper (Plain 3 true false)));
              ("p", MProperty (Some (Wrapper (Plain 4 true false))) None None);
              ("N", MNested (Cls true [("n", MStaticMethod (Wrapper (Plain 5 true false)))])); ("F", MForeign 9)]%string.
Proof. reflexivity. Qed.
