(* C14 — Answers do not depend on what was asked before (memoisation is invisible).
   Lemmas: C14/Proofs.v.  [erun] / [irun] (C14/Memo.v) model the two
   memoising decorators of beartype/_util/cache/utilcachecall.py over arbitrary operation
   histories (calls with equal / similar / unhashable / failing arguments, garbage collection
   and reuse of identifiers, cache clears); they are compared with the real decorators on
   generated histories on every run, and the public API is compared with itself in a pristine
   interpreter after generated histories (harness/props/c14.py). *)
From Coq Require Import List ZArith.
From BT Require Import Core.PyVal C14.Memo C14.Proofs.
Import ListNotations.

(* 1. @callable_cached is invisible after any history (equal, similar, unhashable and failing
      arguments, clears) for every callable that cannot tell apart arguments identified by
      Python's == and hash: every answer — value or exception — is the uncached one. *)
Theorem C14_callable_cached_invisible : forall f ops,
  congruent f -> map fst (erun f [] ops) = eref f ops.
Proof. intros f ops Hc. apply callable_cached_invisible; [exact Hc|]. intros k o []. Qed.
Print Assumptions C14_callable_cached_invisible.

(* ... and that hypothesis is necessary. *)
Theorem C14_callable_cached_refuted_when_not_congruent :
  let f := fun v => Ret (VCls (type_of v)) in
  let ops := [ECall (VInt 1); ECall (VBool true)] in
  map fst (erun f [] ops) <> eref f ops.
Proof. vm_compute. discriminate. Qed.
Print Assumptions C14_callable_cached_refuted_when_not_congruent.

(* 2. @method_cached_arg_by_id is invisible after any history of allocations, garbage collections,
      calls and clears in which no object is collected after having been memoised on (the wrappers
      of hashable hints are pinned by the strong wrapper cache). *)
Theorem C14_cached_by_id_invisible_when_pinned : forall f ops,
  wf_ops [] ops = true -> pinned [] ops = true -> irun f [] [] ops = iref f [] ops.
Proof. intros f ops Hw Hp. apply (cached_by_id_invisible_when_pinned f ops [] [] []); auto. intros i o H. discriminate. Qed.
Print Assumptions C14_cached_by_id_invisible_when_pinned.

(* ... and refuted without pinning (known finding F14: wrappers of unhashable hints are not pinned). *)
Theorem C14_cached_by_id_refuted_by_id_reuse :
  let f := fun v => Ret v in
  let ops := [IAlloc 1 (VInt 1); ICall 1; IFree 1; IAlloc 1 (VInt 2); ICall 1] in
  wf_ops [] ops = true /\ irun f [] [] ops <> iref f [] ops.
Proof. vm_compute. split; [reflexivity|discriminate]. Qed.
Print Assumptions C14_cached_by_id_refuted_by_id_reuse.

(* Non-vacuity: a congruent callable with failing arguments, and a pinned history with reuse of the
   identifier of an object that was never memoised on. *)
Example C14_example :
  (forall f, f = (fun v => if py_eq v (VInt 0) then Raise 7 else Ret (VBool (py_eq v (VInt 1)))) ->
     map fst (erun f [] [ECall (VBool false); ECall (VInt 0); EClear; ECall (VFloat 2); ECall (VBool true)])
     = [Raise 7; Raise 7; Ret (VBool true); Ret (VBool true)])
  /\ (let ops := [IAlloc 1 (VInt 1); IFree 1; IAlloc 1 (VInt 2); ICall 1; IAlloc 2 (VInt 3); ICall 2; ICall 1] in
      wf_ops [] ops = true /\ pinned [] ops = true).
Proof. split; [intros f ->; vm_compute; reflexivity|vm_compute; split; reflexivity]. Qed.

(* 3. The table that deduplicates PEP 585 / PEP 604 hints by their representation (F51, repaired): whatever was asked before,
      the hint used means what the hint asked about means; equal hints are still shared; without the equality test a hint over
      a second class of the same name is answered with the first class. *)
From BT Require Import C14.Dedup.
Theorem C14_dedup_invisible : forall hs t, map h_meaning (run dedup_checked t hs) = map h_meaning hs.
Proof.
  induction hs as [|h hs IH]; intro t; [reflexivity|]. cbn [run map]. unfold dedup_checked at 1.
  destruct (cache_or_get t h) as [t' c]. cbn [map]. rewrite IH. f_equal.
  unfold heq. destruct (Nat.eqb_spec (h_meaning c) (h_meaning h)); auto.
Qed.
Print Assumptions C14_dedup_invisible.

Theorem C14_dedup_shares : forall t a b,
  tget (h_repr a) t = None -> h_repr b = h_repr a -> heq a b = true -> run dedup_checked t [a; b] = [a; a].
Proof.
  intros t a b Hn Hr He. cbn [run]. unfold dedup_checked, cache_or_get. rewrite Hn. cbn [tget].
  rewrite Hr, Nat.eqb_refl, He. unfold heq. now rewrite Nat.eqb_refl.
Qed.
Print Assumptions C14_dedup_shares.

Theorem C14_dedup_unchecked_refuted :
  let k1 := {| h_id := 1; h_repr := 7; h_meaning := 100 |} in
  let k2 := {| h_id := 2; h_repr := 7; h_meaning := 200 |} in
  map h_meaning (run dedup_unchecked [] [k1; k2]) = [100; 100] /\
  map h_meaning (run dedup_checked [] [k1; k2]) = [100; 200].
Proof. split; reflexivity. Qed.
Print Assumptions C14_dedup_unchecked_refuted.
