(* C15 — The public API is safe to use from many threads under every interleaving.
   Lemmas: C15/Proofs.v.  [step_locked] (C15/Conc.v) is the
   get-or-create-under-a-lock discipline of BeartypeConf.__new__, of the TypeHint wrapper cache and of
   hook registration, at the granularity of its five steps, for any number of threads and any
   schedule; [step_unlocked] is @callable_cached.  On every run real threads are driven through
   the public API under a seeded line-level scheduler (sys.settrace) and their outcomes are checked
   against these statements (harness/props/c15.py). *)
From Coq Require Import List.
From BT Require Import C15.Conc C15.Proofs.
Import ListNotations.

(* 1. Under every interleaving of any number of threads, every two completed calls for one key are
      handed one and the same object (equal configurations / equal hashable hints yield one shared
      object), which is the object the table records. *)
Theorem C15_locked_agreement : forall keys sched t1 t2 th1 th2 o1 o2,
  let s := run step_locked (init 0 keys) sched in
  nth_error (threads s) t1 = Some th1 -> nth_error (threads s) t2 = Some th2 ->
  pc th1 = 5 -> pc th2 = 5 -> tkey th1 = tkey th2 ->
  tresult th1 = Some o1 -> tresult th2 = Some o2 -> o1 = o2.
Proof.
  intros keys sched t1 t2 th1 th2 o1 o2 s H1 H2 P1 P2 Hk R1 R2. pose proof (reachable_inv keys sched) as Hs.
  destruct (finished_recorded _ _ _ Hs H1 P1) as (a & Ra & La), (finished_recorded _ _ _ Hs H2 P2) as (b & Rb & Lb).
  fold s in La, Lb. congruence.
Qed.
Print Assumptions C15_locked_agreement.

(* 2. No deadlock: in every reachable state with an unfinished call some thread can take a step. *)
Theorem C15_locked_progress : forall keys sched,
  let s := run step_locked (init 0 keys) sched in
  (exists t th, nth_error (threads s) t = Some th /\ pc th < 5) -> exists t, moves s t.
Proof. intros keys sched. apply inv_progress, reachable_inv. Qed.
Print Assumptions C15_locked_progress.

(* 3. The lock is what makes it so: the same steps without it hand two callers of one key two
      different objects under one schedule (this is @callable_cached: harmless only for callables
      whose results are interchangeable). *)
Theorem C15_unlocked_refuted :
  let s := run step_unlocked (init 1 [7; 7]) [0; 1; 0; 0; 1; 1] in
  map tresult (threads s) = [Some 0; Some 1].
Proof. reflexivity. Qed.
Print Assumptions C15_unlocked_refuted.

(* Non-vacuity: three threads, two keys, an interleaved schedule run to completion. *)
Example C15_example :
  let s := run step_locked (init 0 [3; 3; 4]) [0; 1; 0; 2; 0; 0; 0; 1; 1; 1; 1; 2; 1; 2; 2; 2; 2; 2] in
  map tresult (threads s) = [Some 0; Some 0; Some 1] /\ map pc (threads s) = [5; 5; 5].
Proof. split; reflexivity. Qed.
