(* C19 — is_subhint is a sound preorder and TypeHint wrappers are coherent.
   Lemmas: Core/DoorFuel.v, Core/DoorProofs.v.  [is_subhint] / [sub] (Core/Door.v)
   model beartype.door.TypeHint.is_subhint with its three outcomes (True, False,
   BeartypeDoorIsSubhintException) and are compared with beartype on generated pairs and triples on
   every run (harness/props/c19.py); [sub n] is the model at recursion fuel n, and the theorems
   hold at every fuel. *)
From Coq Require Import List.
From BT Require Import Gen.ClassTable Gen.SignSets Core.Hint Core.Door Core.DoorProofs Core.DoorFuel.
Import ListNotations.

(* 1. Reflexivity, three-valued: for every hint of the grammar, is_subhint(h, h) and
      TypeHint(h) == TypeHint(h) never answer False (they answer True, or raise: see 4). *)
Theorem C19_reflexive_never_false : forall h n,
  door_ok h = true -> sub n h h <> RF /\ eqh n h h <> RF.
Proof. intros h n. exact (refl_never_false n h). Qed.
Print Assumptions C19_reflexive_never_false.

(* 2. Transitivity on classes and unions of classes (partial: the full grammar is compared with
      beartype on generated triples only). *)
Theorem C19_transitive_flat_partial : forall n m k xs ys zs,
  ~ In c_Hashable zs ->
  sub (S (S n)) (flat xs) (flat ys) = RT -> sub (S (S m)) (flat ys) (flat zs) = RT ->
  sub (S (S k)) (flat xs) (flat zs) = RT.
Proof.
  intros n m k xs ys zs Hh. rewrite !sub_flat_flat. intros H1%r3_of_RT H2%r3_of_RT.
  now rewrite (sub_flat_trans xs ys zs Hh H1 H2).
Qed.
Print Assumptions C19_transitive_flat_partial.

(* ... and refuted through typing.Any (known finding F13, by design of gradual typing). *)
Theorem C19_trans_refuted_through_any :
  is_subhint (HCls c_int) HAny = RT /\ is_subhint HAny (HCls c_str) = RT /\ is_subhint (HCls c_int) (HCls c_str) = RF.
Proof. vm_compute. repeat split. Qed.
Print Assumptions C19_trans_refuted_through_any.

(* 3. Soundness with respect to checking, on Any-free hints built from classes, unions,
      one-argument containers, mappings and fixed / variadic tuples: whenever is_subhint(A, B)
      answers True, every object satisfying A at full depth satisfies B. *)
Theorem C19_sound_simple : forall pb n a b x,
  simple a = true -> simple b = true -> sub n a b = RT -> sat pb a x = true -> sat pb b x = true.
Proof. intros pb n a b x Ha Hb H. exact (sound_simple pb n a b H Ha Hb x). Qed.
Print Assumptions C19_sound_simple.

(* ... Annotated hints compare by their metahints and (equal) metadata (F12, fixed in the repository). *)
Theorem C19_annotated_unrelated_rejected :
  let v := VInst [c_object] in
  is_subhint (HAnnot (HCls c_str) [v]) (HAnnot (HCls c_int) [v]) = RF
  /\ is_subhint (HAnnot (HCls c_bool) [v]) (HAnnot (HCls c_int) [v]) = RT.
Proof. vm_compute. split; reflexivity. Qed.
Print Assumptions C19_annotated_unrelated_rejected.

(* 4. The third outcome is reachable on a hint compared with itself (known finding F25). *)
Theorem C19_reflexivity_raises :
  let h := HUnion [HCont s_Collection (HCls c_str); HMap m_Dict (HCls c_str) (HCls c_int)] in
  is_subhint h h = RX.
Proof. vm_compute. reflexivity. Qed.
Print Assumptions C19_reflexivity_raises.

(* 5. Fuel adequacy: the model's recursion fuel never runs out, for every pair of hints of the
      grammar.  The three outcomes the theorems above speak about (True, False, the exception) are
      the only answers of [is_subhint] and [hint_equal]; the out-of-fuel value of the totalised
      definitions is unreachable, so no statement above holds through it. *)
Theorem C19_model_never_out_of_fuel : forall a b,
  is_subhint a b <> RFuel /\ hint_equal a b <> RFuel.
Proof. intros a b. split; [exact (is_subhint_has_fuel a b)|exact (hint_equal_has_fuel a b)]. Qed.
Print Assumptions C19_model_never_out_of_fuel.

(* ... so reflexivity, stated on the public functions: is_subhint(h, h) answers True or raises
      (the latter is F25), and TypeHint(h) == TypeHint(h) likewise; nothing else. *)
Theorem C19_reflexive_true_or_raises : forall h, door_ok h = true ->
  (is_subhint h h = RT \/ is_subhint h h = RX) /\ (hint_equal h h = RT \/ hint_equal h h = RX).
Proof.
  intros h Hok. pose proof (C19_model_never_out_of_fuel h h) as [F1 F2].
  unfold is_subhint, hint_equal in *.
  destruct (refl_never_false (2 * (hsize h + hsize h) + 2) h Hok) as [R1 R2].
  split.
  - destruct (sub _ h h); [now left|congruence|now right|congruence].
  - destruct (eqh _ h h); [now left|congruence|now right|congruence].
Qed.
Print Assumptions C19_reflexive_true_or_raises.

(* 6. Fuel independence: an answer of the model at ANY fuel, unless it is "out of fuel", is the
      answer of [is_subhint]; and every fuel at or above the supplied one gives that answer.  The
      theorems above that are stated "at every fuel n" (1, 2, 3) are therefore statements about
      the one function [is_subhint] that the correspondence check compares with beartype. *)
Theorem C19_model_fuel_independent : forall n a b,
  (sub n a b <> RFuel -> sub n a b = is_subhint a b)
  /\ (2 * (hsize a + hsize b) + 2 <= n -> sub n a b = is_subhint a b /\ eqh n a b = hint_equal a b).
Proof.
  intros n a b. split; [exact (sub_any_fuel n a b)|].
  intros Hn. split; [exact (sub_fuel_independent n a b Hn)|exact (eqh_fuel_independent n a b Hn)].
Qed.
Print Assumptions C19_model_fuel_independent.

(* ... hence soundness (3) on the public function itself *)
Theorem C19_sound_simple_public : forall pb a b x,
  simple a = true -> simple b = true -> is_subhint a b = RT -> sat pb a x = true -> sat pb b x = true.
Proof. intros pb a b x Ha Hb H. exact (sound_simple pb _ a b H Ha Hb x). Qed.
Print Assumptions C19_sound_simple_public.

(* Non-vacuity of (3): list[bool] <= Sequence[int | str] and tuple[bool, str] <= tuple[int | str, ...]. *)
Example C19_example :
  simple (HCont s_List (HCls c_bool)) = true
  /\ simple (HCont s_Sequence (HUnion [HCls c_int; HCls c_str])) = true
  /\ is_subhint (HCont s_List (HCls c_bool)) (HCont s_Sequence (HUnion [HCls c_int; HCls c_str])) = RT
  /\ is_subhint (HTuple [HCls c_bool; HCls c_str]) (HCont s_Tuple (HUnion [HCls c_int; HCls c_str])) = RT
  /\ is_subhint (HCont s_Sequence (HCls c_int)) (HCont s_List (HCls c_int)) = RF.
Proof. vm_compute. repeat split. Qed.
