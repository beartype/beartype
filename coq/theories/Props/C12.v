(* C12 — Validator algebra: generated code, is_valid and boolean meaning coincide.
   Lemmas: Core/GenProofs.v (vcode_correct, check_expr_correct). *)
From Coq Require Import List ZArith Bool String.
From BT Require Import Gen.ClassTable Gen.SignSets.
From BT Require Import Core.PyVal Core.Expr Core.Hint Core.Check Core.GenProofs Props.C02.
Import ListNotations.

(* 1. The inline code generated from a validator expression of any nesting depth, applied to
      a local variable holding a well-formed object, evaluates — for every state, draw and
      table of (total, boolean) user callables — to the boolean meaning of the expression:
      & is and, | is or, ~ is not, IsAttr means the attribute exists and its value satisfies
      the inner validator; it never raises. *)
Theorem C12_code_is_meaning : forall r pb v obj y s,
  wf y = true -> env_get obj (env s) = Some y -> Forall safe_op (trace s) ->
  exists s', eval r (preds_of pb) (vcode v obj) s = (Ok (VBool (vmean pb v y)), s').
Proof.
  intros r pb v obj y s Hw He _.
  destruct (vcode_correct r pb v obj y s Hw He) as (s' & E & _). eauto.
Qed.
Print Assumptions C12_code_is_meaning.

(* 2. The temporaries an IsAttr creates never clobber a live variable: evaluating a
      validator's code changes only variables whose names strictly extend the name of the
      variable it was applied to. *)
Theorem C12_temporaries_fresh : forall r pb v obj y s s' res,
  wf y = true -> env_get obj (env s) = Some y -> Forall safe_op (trace s) ->
  eval r (preds_of pb) (vcode v obj) s = (res, s') ->
  forall x, ~ extends obj x -> env_get x (env s') = env_get x (env s).
Proof.
  intros r pb v obj y s s' res Hw He _ Hev x Hx.
  destruct (vcode_correct r pb v obj y s Hw He) as (s2 & E & F & _).
  rewrite Hev in E. inversion E; subst. now apply F.
Qed.
Print Assumptions C12_temporaries_fresh.

(* 3. Checking Annotated[T, V1, ..., Vn]: the generated check accepts exactly when the sampled
      check of T accepts and every Vi holds under its boolean meaning; with T a plain class (or
      object/Any) that is exactly "the object satisfies T and every Vi". *)
Theorem C12_annotated : forall cf r pb mh vs x,
  hint_ok (HAnnot mh vs) = true -> wf x = true ->
  verdict r (preds_of pb) (check_expr cf (HAnnot mh vs)) x
  = Ok ((if ignorable mh then true else chk cf r pb mh x) && forallb (fun v => vmean pb v x) vs).
Proof.
  intros cf r pb mh vs x Hok Hw. rewrite (check_expr_correct cf r pb _ x Hok Hw). reflexivity.
Qed.
Print Assumptions C12_annotated.

Theorem C12_annotated_exact : forall cf r pb c vs x,
  vs <> [] -> wf x = true -> c <> c_object ->
  verdict r (preds_of pb) (check_expr cf (HAnnot (HCls c) vs)) x = Ok (sat pb (HAnnot (HCls c) vs) x).
Proof.
  intros cf r pb c vs x Hne Hw Hc. rewrite C12_annotated; [|cbn; destruct vs; [congruence|reflexivity]|exact Hw].
  cbn [sat chk ignorable]. apply Nat.eqb_neq in Hc. now rewrite Hc.
Qed.
Print Assumptions C12_annotated_exact.

Theorem C12_annotated_object : forall cf r pb vs x,
  vs <> [] -> wf x = true ->
  verdict r (preds_of pb) (check_expr cf (HAnnot HAny vs)) x = Ok (sat pb (HAnnot HAny vs) x).
Proof.
  intros cf r pb vs x Hne Hw. rewrite C12_annotated; [|cbn; destruct vs; [congruence|reflexivity]|exact Hw].
  reflexivity.
Qed.
Print Assumptions C12_annotated_object.

(* 4. a failed validator rejects whatever the draw (C02) *)
Theorem C12_failed_validator_rejects : forall cf pb mh vs v x r,
  In v vs -> vmean pb v x = false -> chk cf r pb (HAnnot mh vs) x = false.
Proof. exact C02_validator. Qed.
Print Assumptions C12_failed_validator_rejects.

(* non-vacuity: nested IsAttr with shared prefixes, under a container (non-identifier pith) *)
Definition pb12 (f : nat) (v : pyval) : bool := match f, v with 0, VInt z => (0 <? z)%Z | _, _ => false end.
Definition v12 : vexp :=
  VAnd (VAttr "x" (VOr (VAttr "y" (VEqual (VInt 1))) (VIs 0))) (VNot (VInst [c_int])).
Definition o12 (inner : pyval) : pyval := VObj c_UserA [("x", inner)].

Example C12_demo :
  let h := HCont s_List (HAnnot HAny [v12; VAttr "x" (VNot (VEqual VNone))]) in
  hint_ok h = true /\
  map (fun x => (vmean pb12 v12 x,
                 verdict 0 (preds_of pb12) (check_expr {| is_random := true |} h) (VCont c_list [x])))
      [o12 (VInt 5); o12 (VInt 0); o12 (VObj c_UserB [("y", VInt 1)]); o12 VNone; VInt 3; VObj c_UserC []]
  = [(true, Ok true); (false, Ok false); (true, Ok true); (false, Ok false); (false, Ok false); (false, Ok false)].
Proof. vm_compute. split; reflexivity. Qed.
