(* C17 — Configurations are memoised, comparable and validated the same way every time.
   Lemmas: C17/Proofs.v; model C17/Conf.v tied to
   beartype/_conf/confmain.py by harness/props/c17.py on every run. *)
From Coq Require Import List ZArith String.
From BT Require Import C17.Conf C17.Proofs Gen.C17Init.
Import ListNotations.

(* The memo beartype holds right after `import beartype` is reachable from the empty memo,
   so every invariant below applies to every memo a running process can hold. *)
Theorem C17_init_reachable : snd (run None [] init_calls) = init_memo.
Proof. vm_compute. reflexivity. Qed.
Print Assumptions C17_init_reachable.

Theorem C17_reachable_ok : forall env ops done os m,
  run_ops env init_memo done ops = (os, m) -> memo_ok m.
Proof.
  intros env ops done os m H. change m with (snd (os, m)). rewrite <- H. apply run_ops_inv.
  rewrite <- C17_init_reachable. apply run_inv, memo_ok_nil.
Qed.
Print Assumptions C17_reachable_ok.

(* 1. equal keyword arguments (Python ==, any order) give the same object after any history *)
Theorem C17_same_object : forall env m a b i m1,
  new env m a = (OConf i, m1) -> key_eqb (norm env a) (norm env b) = true ->
  new env m1 b = (OConf i, m1).
Proof.
  intros env m a b i m1 H Hk. rewrite <- (app_nil_r m1). now apply (same_object_later env m a).
Qed.
Print Assumptions C17_same_object.

(* 2. differing arguments give different (hence, by 3, unequal) objects *)
Theorem C17_distinct : forall env m a b i j m1 m2,
  new env m a = (OConf i, m1) -> new env m1 b = (OConf j, m2) ->
  key_eqb (norm env a) (norm env b) = false -> i <> j.
Proof.
  intros env m a b i j m1 m2 Ha Hb Hk E. rewrite <- (app_nil_r m1) in Hb.
  apply (index_iff_key _ _ _ _ _ _ _ _ _ Ha Hb) in E. congruence.
Qed.
Print Assumptions C17_distinct.

(* 3. == is identity on configurations, so hash agrees with equality *)
Theorem C17_eq_hash : forall m i j, memo_ok m -> conf_eq m i j = true -> i = j.
Proof.
  intros m i j [Hd _] H. unfold conf_eq in H.
  destruct (nth_error m i) eqn:Ei, (nth_error m j) eqn:Ej; try discriminate. eapply Hd; eauto.
Qed.
Print Assumptions C17_eq_hash.

(* 4. every option of a valid call reads back as passed (after the documented defaulting,
      environment and numeric-tower normalisation computed by mk_kwargs/norm) *)
Theorem C17_readback : forall env m a i m1 kw,
  memo_ok m -> new env m a = (OConf i, m1) -> mk_kwargs (norm env a) = Some kw ->
  exists c, nth_error m1 i = Some c /\ c_key c = norm env a /\ c_kwargs c = kw.
Proof.
  intros env m a i m1 kw Hm H Hk. destruct (readback _ _ _ _ _ Hm H) as (c & Hn & He & Hc). exists c.
  destruct (valid_lookalikes_identical _ _ _ _ Hc Hk He). auto.
Qed.
Print Assumptions C17_readback.

(* 5. uniform validation, as far as it holds: an invalid value with no valid look-alike is
      rejected with BeartypeConfParamException whatever was created before *)
Theorem C17_uniform_validation_partial : forall env m a,
  memo_ok m -> forallb hashable (norm env a) = true ->
  (forall k, key_eqb k (norm env a) = true -> mk_kwargs k = None) ->
  new env m a = (ORaiseParam, m).
Proof.
  intros env m a Hm Hh Hno. pose proof (Hno _ (key_eqb_refl _)) as Hk.
  destruct (newP env m a) as [|j _ Ef| |]; try congruence. exfalso.
  destruct (find_key_nth _ _ _ Ef) as (c & Hn & Kc).
  destruct (memo_ok_nth _ _ _ Hm Hn) as (_ & Hmk & _). rewrite (Hno _ Kc) in Hmk. discriminate.
Qed.
Print Assumptions C17_uniform_validation_partial.

(* the full-strength clause is FALSE of the faithful model (known findings F6, F7) *)
Definition C17_uniform_validation_full : Prop :=
  forall env m a, memo_ok m ->
    (mk_kwargs (norm env a) = None \/ forallb hashable (norm env a) = false) ->
    fst (new env m a) = ORaiseParam.

Definition with_opt (i : nat) (v : val) : args := set defaults i v.

Theorem C17_uniform_validation_refuted_lookalike : ~ C17_uniform_validation_full.
Proof.
  intros H.
  pose (m := snd (run None [] [with_opt i_debug (VBool true)])).
  specialize (H None m (with_opt i_debug (VInt 1)) (run_inv _ _ _ memo_ok_nil)). vm_compute in H.
  discriminate (H (or_introl eq_refl)).
Qed.
Print Assumptions C17_uniform_validation_refuted_lookalike.

Theorem C17_uniform_validation_refuted_unhashable : ~ C17_uniform_validation_full.
Proof.
  intros H. specialize (H None [] (with_opt i_overrides VDictRaw) memo_ok_nil). vm_compute in H.
  discriminate (H (or_intror eq_refl)).
Qed.
Print Assumptions C17_uniform_validation_refuted_unhashable.

(* 6. BeartypeConf( **conf.kwargs ) is conf — when the three per-kind violation types were
      passed explicitly and is_pep484_tower is off (nothing to materialise) ... *)
Theorem C17_roundtrip_partial : forall env m i c,
  memo_ok m -> nth_error m i = Some c ->
  isnone (get (c_key c) i_vdoor) = false -> isnone (get (c_key c) i_vparam) = false ->
  isnone (get (c_key c) i_vreturn) = false -> get (c_key c) i_tower = VBool false ->
  adjust_color env (get (c_key c) i_color) = get (c_key c) i_color ->
  new env m (kwargs_args c) = (OConf i, m).
Proof.
  intros env m i c Hm Hn H1 H2 H3 Ht Hc. apply (new_member _ _ _ _ _ Hm Hn).
  destruct (memo_ok_nth _ _ _ Hm Hn) as (_ & Hmk & _).
  unfold norm, kwargs_args. rewrite (mk_kwargs_explicit _ _ Hmk) by assumption.
  rewrite fold_deprecated_kwargs by apply (mk_kwargs_key_ok _ _ Hmk).
  rewrite Hc, set_get. apply key_eqb_refl.
Qed.
Print Assumptions C17_roundtrip_partial.

(* ... and FALSE in general (known finding F8): already for the default configuration *)
Definition C17_roundtrip_full : Prop :=
  forall env m a i m1 c, memo_ok m -> new env m a = (OConf i, m1) -> nth_error m1 i = Some c ->
    new env m1 (kwargs_args c) = (OConf i, m1).

Theorem C17_roundtrip_full_refuted : ~ C17_roundtrip_full.
Proof.
  intros H.
  pose (m1 := snd (new None [] defaults)).
  assert (E1 : new None [] defaults = (OConf 0, m1)) by (vm_compute; reflexivity).
  destruct (nth_error m1 0) as [c|] eqn:Ec; [|vm_compute in Ec; discriminate].
  specialize (H None [] defaults 0%nat m1 c memo_ok_nil E1 Ec).
  vm_compute in Ec. inversion Ec; subst c. vm_compute in H. discriminate.
Qed.
Print Assumptions C17_roundtrip_full_refuted.

Definition explicit_conf : args :=
  set (set (set (set defaults i_vdoor (VCls 3)) i_vparam (VCls 4)) i_vreturn (VCls 10)) i_debug (VBool true).

Example C17_roundtrip_nonvacuous :
  let m := snd (run None init_memo [explicit_conf]) in
  let i := List.length init_memo in
  match nth_error m i with
  | Some c =>
      fst (run None init_memo [explicit_conf]) = [OConf i] /\
      isnone (get (c_key c) i_vdoor) = false /\ get (c_key c) i_tower = VBool false /\
      new None m (kwargs_args c) = (OConf i, m)
  | None => False
  end.
Proof. vm_compute. repeat split. Qed.

Example C17_same_object_nonvacuous :
  let a := with_opt i_verbosity (VEnum 2 3) in
  let b := with_opt i_verbosity (VInt 3) in     (* IntEnum look-alike: same object *)
  key_eqb (norm None a) (norm None b) = true /\
  let i := List.length init_memo in
  fst (run None init_memo [a; b; a]) = [OConf i; OConf i; OConf i].
Proof. vm_compute. split; reflexivity. Qed.

Example C17_invalid_nonvacuous :
  fst (run None init_memo [with_opt i_strategy (VStr "O1"); with_opt i_skip (VNames ["!bad"])])
  = [ORaiseParam; ORaiseParam].
Proof. vm_compute. reflexivity. Qed.
