(* C10 — Checking never modifies or consumes the object being checked.
   Lemma: Core/GenProofs.check_expr_trace_safe. *)
From Coq Require Import List ZArith String.
From BT Require Import Gen.ClassTable Gen.SignSets.
From BT Require Import Core.PyVal Core.Expr Core.Hint Core.Check Core.GenProofs.
Import ListNotations.

(* Every protocol operation a check performs on the objects it inspects is one of the
   read-only operations of [safe_op]: isinstance/issubclass, ==, truth value, len() of a Sized
   object, indexing a Sequence within bounds, indexing a mapping at a key it holds, and
   next(iter(.)) / next(iter(.values())) only of re-iterable Collections / Mappings.  (The
   expression language of generated code has no other operation: the template translator
   rejects anything else, so a mutating call in a template is a broken obligation.) *)
Theorem C10_readonly : forall cf r pb h x,
  hint_ok h = true -> wf x = true ->
  Forall safe_op (trace_of r (preds_of pb) (check_expr cf h) x).
Proof. exact check_expr_trace_safe. Qed.
Print Assumptions C10_readonly.

(* no check advances an iterator or generator, or consumes a one-shot iterable *)
Theorem C10_no_iteration_of_nonreiterables : forall cf r pb h x v,
  hint_ok h = true -> wf x = true ->
  In (TFirst v) (trace_of r (preds_of pb) (check_expr cf h) x) \/ In (TFirstValue v) (trace_of r (preds_of pb) (check_expr cf h) x) ->
  issub (type_of v) c_Collection = true.
Proof.
  intros cf r pb h x v Hok Hw [Hin|Hin]; apply (check_expr_op_safe cf r pb h x _ Hok Hw) in Hin; [exact Hin|].
  now apply Core.ClassFacts.collection_of_mapping.
Qed.
Print Assumptions C10_no_iteration_of_nonreiterables.

(* a mapping is only ever indexed at a key it already holds, so defaultdict.__missing__
   cannot fire and nothing is inserted; a sequence is only ever indexed within its bounds *)
Theorem C10_mapping_key_present : forall cf r pb h x c kvs k,
  hint_ok h = true -> wf x = true ->
  In (TItem (VMap c kvs) k) (trace_of r (preds_of pb) (check_expr cf h) x) -> lookup k kvs <> None.
Proof.
  intros cf r pb h x c kvs k Hok Hw. exact (check_expr_op_safe cf r pb h x (TItem (VMap c kvs) k) Hok Hw).
Qed.
Print Assumptions C10_mapping_key_present.

(* non-vacuity: a generator under Iterable[int] is accepted without being touched, a
        defaultdict is indexed at its first key only *)
Definition no_preds10 := preds_of (fun _ _ => false).

Example C10_demo_generator :
  let h := HCont s_Iterable (HCls c_int) in
  let g := VCont c_generator [VStr "not an int"; VInt 1] in
  wf g = true /\ verdict 3 no_preds10 (check_expr {| is_random := true |} h) g = Ok true
  /\ trace_of 3 no_preds10 (check_expr {| is_random := true |} h) g = [TInst g; TInst g].
Proof. vm_compute. repeat split. Qed.

Example C10_demo_defaultdict :
  let h := HMap m_DefaultDict (HCls c_str) (HCls c_int) in
  let d := VMap c_defaultdict [(VStr "a", VInt 1); (VStr "b", VStr "x")] in
  trace_of 0 no_preds10 (check_expr {| is_random := true |} h) d
  = [TInst d; TLen d; TFirst d; TInst (VStr "a"); TItem d (VStr "a"); TInst (VInt 1)].
Proof. vm_compute. reflexivity. Qed.
