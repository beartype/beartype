(* C18 — Hint-rewriting options behave exactly like rewriting the hints by hand.
   The equivalence itself is Core/OverrideProofs.effective_is_subst1.  [effective] models the lazily
   applied, recursion-guarded override reduction of beartype/_check/convert/_reduce (compared
   with beartype under BeartypeConf(hint_overrides=..., is_pep484_tower=...) on every run, on
   verdicts, protocol traces and the generated code itself); [subst1] is one simultaneous
   rewriting pass over the hint, at every nesting depth. *)
From Coq Require Import List.
From BT Require Import Gen.ClassTable Gen.SignSets Core.PyVal Core.Expr Core.Hint Core.Check Core.CheckFacts Core.GenProofs Core.Sound Core.Override Core.OverrideProofs.
Import ListNotations.

(* 1. hint_overrides: whenever the replacements are stable (rewriting inside a replacement,
      with its own key protected, changes nothing — e.g. {A: A | B}, {A: B} with B mentioning no
      key), every check under the configuration is the check of the hand-rewritten hint under the
      same sampler mode and draw. *)
Theorem C18_overrides : forall ov cf r pb h y,
  stable ov -> chk_ov ov cf r pb h y = check cf r pb (subst1 ov h) y.
Proof. intros ov cf r pb h y Hst. unfold chk_ov. now rewrite effective_is_subst1. Qed.
Print Assumptions C18_overrides.

(* ... the expression beartype generates under the configuration evaluates to exactly that
   check, and an object satisfying the hand-rewritten hint at full depth is never rejected. *)
Theorem C18_generated_code : forall ov cf r pb h y,
  stable ov -> hint_ok (subst1 ov h) = true -> wf y = true ->
  verdict r (preds_of pb) (check_expr cf (effective ov h)) y = Ok (check cf r pb (subst1 ov h) y).
Proof.
  intros ov cf r pb h y Hst Hok Hw. rewrite effective_is_subst1 by exact Hst. now apply check_expr_correct.
Qed.
Print Assumptions C18_generated_code.

Theorem C18_no_false_alarm : forall ov cf r pb h y,
  stable ov -> hint_ok (subst1 ov h) = true -> wf y = true ->
  sat pb (subst1 ov h) y = true -> chk_ov ov cf r pb h y = true.
Proof.
  intros ov cf r pb h y Hst Hok Hw Hs. rewrite C18_overrides by exact Hst. now apply check_sound.
Qed.
Print Assumptions C18_no_false_alarm.

(* 2. is_pep484_tower=True: float means float | int and complex means complex | float | int at
      every nesting depth. *)
Theorem C18_tower : forall cf r pb h y,
  chk_ov tower_ov cf r pb h y = check cf r pb (subst1 tower_ov h) y.
Proof. intros. apply C18_overrides, tower_stable. Qed.
Print Assumptions C18_tower.

Theorem C18_tower_float : forall pb x,
  sat pb (subst1 tower_ov (HCls c_float)) x = isinst x [c_float; c_int].
Proof. intros pb x. exact (sat_union_cls pb [c_float; c_int] x). Qed.
Print Assumptions C18_tower_float.

Theorem C18_tower_complex : forall pb x,
  sat pb (subst1 tower_ov (HCls c_complex)) x = isinst x [c_complex; c_float; c_int].
Proof. intros pb x. exact (sat_union_cls pb [c_complex; c_float; c_int] x). Qed.
Print Assumptions C18_tower_complex.

(* 3. Replacements that mention another key are rewritten again by the code (chained), which
      one simultaneous pass does not do: the stability hypothesis of (1) is necessary. *)
Theorem C18_chained_differs :
  effective chained_ov (HCls c_float) = HUnion [HCls c_float; HCls c_int; HCls c_str]
  /\ subst1 chained_ov (HCls c_float) = HUnion [HCls c_float; HCls c_int].
Proof. split; reflexivity. Qed.
Print Assumptions C18_chained_differs.

(* Non-vacuity: the tower rewrites below a list, a mapping and a fixed tuple. *)
Example C18_example :
  subst1 tower_ov (HTuple [HCont s_List (HCls c_float); HMap m_Dict (HCls c_str) (HCls c_complex)])
  = HTuple [HCont s_List (HUnion [HCls c_float; HCls c_int]);
            HMap m_Dict (HCls c_str) (HUnion [HCls c_complex; HCls c_float; HCls c_int])]
  /\ effective tower_ov (HCont s_List (HCls c_float)) = HCont s_List (HUnion [HCls c_float; HCls c_int])
  /\ stable [(HCls c_int, HCont s_List (HCls c_int))].
Proof.
  repeat split. intros k b [H|[]]. inversion H; subst. reflexivity.
Qed.
