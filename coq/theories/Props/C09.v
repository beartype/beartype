(* C09 — Call-time checking cost does not grow with container size.
   Lemmas: Core/Cost.v (check_reads_bounded), Core/GenProofs.v (check_expr_trace_safe). *)
From Coq Require Import List ZArith String Lia.
From BT Require Import Gen.ClassTable Gen.SignSets.
From BT Require Import Core.PyVal Core.Expr Core.Hint Core.Check Core.GenProofs Core.Cost.
Import ListNotations.

(* The number of items a check reads out of containers (x[i], next(iter(x)),
   next(iter(x.values()))) is bounded by [bound h], a function of the hint alone: for every
   object of any size and nesting, every draw, both sampler modes, on the accepting and on the
   rejecting path alike. *)
Theorem C09_check_bound : forall cf r pb h x,
  hint_ok h = true -> wf x = true ->
  reads (trace_of r (preds_of pb) (check_expr cf h) x) <= bound h.
Proof. intros cf r pb h x _ _. apply check_reads_bounded. Qed.
Print Assumptions C09_check_bound.

(* ... even for objects outside the well-formed universe, whenever the check returns at all *)
Theorem C09_check_bound_any_object : forall cf r preds h x v s',
  eval r preds (check_expr cf h) (st0 x) = (Ok v, s') -> reads (trace s') <= bound h.
Proof.
  intros cf r preds h x v s' H. pose proof (check_reads_bounded cf r preds h x) as B.
  unfold trace_of in B. now rewrite H in B.
Qed.
Print Assumptions C09_check_bound_any_object.

(* what the bound is: at most one item per one-argument container level, one key and its
   value per mapping level, one item per unignorable position of a fixed tuple, summed over
   the members of a union; nothing for classes, literals and type[...] *)
Theorem C09_bound_per_level : forall s ch k v,
  bound (HCont s ch) <= 1 + bound ch /\ bound (HMap s k v) <= 2 + bound k + bound v
  /\ bound (HCounter k) <= 2 + bound k.
Proof.
  intros. cbn [bound]. repeat split; repeat match goal with |- context [ignorable ?h] => destruct (ignorable h) end; lia.
Qed.
Print Assumptions C09_bound_per_level.

(* iterables that are not collections are not iterated at all: every next(iter(.)) is on a
   Collection (see also C10) *)
Theorem C09_noniter : forall cf r pb h x,
  hint_ok h = true -> wf x = true ->
  forall v, In (TFirst v) (trace_of r (preds_of pb) (check_expr cf h) x) -> issub (type_of v) c_Collection = true.
Proof.
  intros cf r pb h x Hok Hw v. exact (check_expr_op_safe cf r pb h x (TFirst v) Hok Hw).
Qed.
Print Assumptions C09_noniter.

(* non-vacuity: the same hint on containers of growing size *)
Definition h9 : hint := HMap m_Dict (HCls c_str) (HCont s_List (HCont s_Set (HCls c_int))).
Definition big (n : nat) : pyval :=
  VMap c_dict (map (fun i => (VStr (String (Ascii.ascii_of_nat (65 + i)) EmptyString),
                              VCont c_list (repeat (VCont c_set (map (fun j => VInt (Z.of_nat j)) (seq 0 n))) n)))
                   (seq 0 n)).
Definition no_preds9 := preds_of (fun _ _ => false).

Example C09_demo :
  bound h9 = 4 /\
  map (fun n => reads (trace_of 7 no_preds9 (check_expr {| is_random := true |} h9) (big n))) [1; 2; 5; 12]
  = [4; 4; 4; 4].
Proof. vm_compute. split; reflexivity. Qed.
