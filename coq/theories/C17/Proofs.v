(* C17 proofs: the BeartypeConf memo, for every creation history.  [canon] picks one representative of each
   class of == keys, so that == on keys is equality of canonical forms; [newP] is the one place where [new] is
   unfolded (its four outcomes as an inductive); [memo_ok] is the invariant of every reachable memo. *)
From Coq Require Import List ZArith Bool Lia.
From BT Require Import C17.Conf.
Import ListNotations.

Lemma strs_eqb_eq a : forall b, strs_eqb a b = true <-> a = b.
Proof.
  induction a as [|x a IH]; intros [|y b]; cbn; try easy.
  rewrite andb_true_iff, String.eqb_eq, IH. split; [intros [-> ->]; reflexivity|intros H; now inversion H].
Qed.

Lemma items_eqb_eq a : forall b, items_eqb a b = true <-> a = b.
Proof.
  induction a as [|[k v] a IH]; intros [|[k' v'] b]; cbn; try easy.
  rewrite !andb_true_iff, !Nat.eqb_eq, IH. split; [intros [[-> ->] ->]; reflexivity|intros H; now inversion H].
Qed.

(* canonical representative of an ==-class *)
Definition canon (v : val) : val := match num_of v with Some z => VInt z | None => v end.

Lemma num_of_canon_none v : num_of v = None -> canon v = v.
Proof. unfold canon. now intros ->. Qed.

Lemma veq_canon a b : veq a b = true <-> canon a = canon b.
Proof.
  unfold veq, canon.
  destruct (num_of a) as [x|] eqn:Ea, (num_of b) as [y|] eqn:Eb.
  - rewrite Z.eqb_eq. split; congruence.
  - split; [discriminate|]. intros H. subst b. cbn in Eb. discriminate.
  - split; [discriminate|]. intros H. subst a. cbn in Ea. discriminate.
  - destruct a, b; cbn in Ea, Eb; try discriminate;
      try (split; [discriminate|intros H; inversion H; fail]);
      try (split; reflexivity).
    + rewrite String.eqb_eq. split; congruence.
    + rewrite strs_eqb_eq. split; congruence.
    + rewrite strs_eqb_eq. split; congruence.
    + rewrite andb_true_iff, !Nat.eqb_eq. split; [intros [-> ->]; reflexivity|intros H; inversion H; auto].
    + rewrite Nat.eqb_eq. split; congruence.
    + rewrite items_eqb_eq. split; congruence.
Qed.

Lemma hashable_canon v : hashable (canon v) = hashable v.
Proof. unfold canon. destruct v; cbn [num_of]; try reflexivity. now destruct (existsb _ _). Qed.

(* keys: == is equality of the canonical forms, so everything about it is congruence *)
Lemma key_eqb_canon a : forall b, key_eqb a b = true <-> map canon a = map canon b.
Proof.
  unfold key_eqb. induction a as [|x a IH]; intros [|y b]; cbn; try easy.
  rewrite andb_true_iff, veq_canon, IH. split; [intros [-> ->]; reflexivity|intros H; now inversion H].
Qed.

Lemma key_eqb_refl a : key_eqb a a = true.
Proof. now apply key_eqb_canon. Qed.

Lemma key_eqb_cong a b c : key_eqb a b = true -> key_eqb c a = key_eqb c b.
Proof. intros H. apply key_eqb_canon in H. apply eq_true_iff_eq. now rewrite !key_eqb_canon, H. Qed.

Lemma key_eqb_hashable a b : key_eqb a b = true -> forallb hashable a = forallb hashable b.
Proof.
  assert (E : forall l, forallb hashable (map canon l) = forallb hashable l).
  { induction l as [|x l IH]; cbn; [|rewrite hashable_canon, IH]; reflexivity. }
  intros H. apply key_eqb_canon in H. now rewrite <- (E a), H.
Qed.

Lemma find_key_cong k k' m : forall i, key_eqb k k' = true -> find_key k m i = find_key k' m i.
Proof.
  induction m as [|c m IH]; intros i H; cbn; [reflexivity|].
  rewrite (key_eqb_cong _ _ _ H). destruct (key_eqb (c_key c) k'); auto.
Qed.

Lemma find_key_none k m : forall i, find_key k m i = None ->
  forall c, In c m -> key_eqb (c_key c) k = false.
Proof.
  induction m as [|c0 m IH]; intros i H c Hin; [destruct Hin|]. cbn in H.
  destruct (key_eqb (c_key c0) k) eqn:E; [discriminate|].
  destruct Hin as [<-|Hin]; [exact E|]. eapply IH; eauto.
Qed.

Lemma find_key_some k m : forall i j, find_key k m i = Some j ->
  i <= j /\ exists c, nth_error m (j - i) = Some c /\ key_eqb (c_key c) k = true.
Proof.
  induction m as [|c0 m IH]; intros i j H; cbn in H; [discriminate|].
  destruct (key_eqb (c_key c0) k) eqn:E.
  - inversion H; subst. split; [lia|]. exists c0. rewrite Nat.sub_diag. auto.
  - destruct (IH _ _ H) as (Hle & c & Hn & Hk). split; [lia|]. exists c.
    replace (j - i) with (S (j - S i)) by lia. auto.
Qed.

Lemma find_key_split k m l : forall i,
  find_key k (m ++ l) i =
  match find_key k m i with Some j => Some j | None => find_key k l (i + List.length m) end.
Proof.
  induction m as [|c m IH]; intros i; cbn; [now rewrite Nat.add_0_r|].
  destruct (key_eqb (c_key c) k); [reflexivity|]. now rewrite IH, Nat.add_succ_comm.
Qed.

Lemma find_key_app k m l : forall i j, find_key k m i = Some j -> find_key k (m ++ l) i = Some j.
Proof. intros i j H. now rewrite find_key_split, H. Qed.

(* the index found determines the ==-class of the key *)
Lemma find_key_nth k m i : find_key k m 0 = Some i ->
  exists c, nth_error m i = Some c /\ key_eqb (c_key c) k = true.
Proof. intros H. apply find_key_some in H. now rewrite Nat.sub_0_r in H. Qed.

Definition conf_ok (c : confobj) : Prop :=
  forallb hashable (c_key c) = true /\ mk_kwargs (c_key c) = Some (c_kwargs c) /\
  c_warnset c = negb (veq (get (c_key c) i_warncls) VWarnDefault).

Definition memo_distinct (m : memo) : Prop :=
  forall i j ci cj, nth_error m i = Some ci -> nth_error m j = Some cj ->
    key_eqb (c_key ci) (c_key cj) = true -> i = j.

Definition memo_ok (m : memo) : Prop := memo_distinct m /\ Forall conf_ok m.

(* distinctness says that every object is found under its own key, at its own index *)
Lemma memo_distinct_find m :
  memo_distinct m <-> forall i c, nth_error m i = Some c -> find_key (c_key c) m 0 = Some i.
Proof.
  split.
  - intros Hd i c Hn. destruct (find_key (c_key c) m 0) as [j|] eqn:Ef.
    + destruct (find_key_nth _ _ _ Ef) as (c' & Hn' & Hk). f_equal. eapply Hd; eauto.
    + apply nth_error_In in Hn. pose proof (find_key_none _ _ _ Ef _ Hn) as H.
      rewrite key_eqb_refl in H. discriminate.
  - intros Hf i j ci cj Hi Hj Hk. apply Hf in Hi, Hj.
    rewrite (find_key_cong _ _ _ _ Hk) in Hi. congruence.
Qed.

Lemma memo_ok_nth m i c : memo_ok m -> nth_error m i = Some c -> conf_ok c.
Proof. intros [_ Hf] Hn. exact (proj1 (Forall_forall _ _) Hf c (nth_error_In _ _ Hn)). Qed.

Lemma memo_ok_nil : memo_ok [].
Proof. split; [|constructor]. intros i j ci cj H. destruct i; discriminate. Qed.

Lemma memo_ok_snoc m c :
  memo_ok m -> find_key (c_key c) m 0 = None -> conf_ok c -> memo_ok (m ++ [c]).
Proof.
  intros [Hd Hf] Hnone Hc. split; [|apply Forall_app; auto].
  rewrite memo_distinct_find in *. intros i c' Hn. rewrite find_key_split.
  destruct (Nat.lt_ge_cases i (List.length m)) as [L|L].
  - rewrite nth_error_app1 in Hn by exact L. now rewrite (Hd _ _ Hn).
  - rewrite nth_error_app2 in Hn by exact L.
    destruct (i - List.length m) as [|[|q]] eqn:Eq; cbn in Hn; try discriminate.
    inversion Hn; subst c'. rewrite Hnone. cbn. rewrite key_eqb_refl. f_equal. lia.
Qed.

Definition fresh (k kw : args) : confobj :=
  {| c_key := k; c_kwargs := kw; c_warnset := negb (veq (get k i_warncls) VWarnDefault) |}.

Inductive new_spec (k : args) (m : memo) : outcome * memo -> Prop :=
| NewUnhashable : forallb hashable k = false -> new_spec k m (ORaiseTypeError, m)
| NewHit i : forallb hashable k = true -> find_key k m 0 = Some i -> new_spec k m (OConf i, m)
| NewInvalid : forallb hashable k = true -> find_key k m 0 = None -> mk_kwargs k = None ->
    new_spec k m (ORaiseParam, m)
| NewMiss kw : forallb hashable k = true -> find_key k m 0 = None -> mk_kwargs k = Some kw ->
    new_spec k m (OConf (List.length m), m ++ [fresh k kw]).

(* the only place where new is unfolded: in the rest of this file norm env a stays a variable *)
Lemma newP env m a : new_spec (norm env a) m (new env m a).
Proof.
  unfold new. generalize (norm env a). intros k.
  destruct (forallb hashable k) eqn:Eh; cbn [negb]; [|now constructor].
  destruct (find_key k m 0) eqn:Ef; [now constructor|].
  destruct (mk_kwargs k) eqn:Ek; now constructor.
Qed.

Lemma new_inv env m a : memo_ok m -> memo_ok (snd (new env m a)).
Proof.
  intros Hm. destruct (newP env m a); cbn [snd]; auto.
  apply memo_ok_snoc; auto. repeat split; auto.
Qed.

(* a successful call leaves its key in the memo, at the index it returns *)
Lemma new_found env m a i m1 :
  new env m a = (OConf i, m1) ->
  forallb hashable (norm env a) = true /\ find_key (norm env a) m1 0 = Some i /\ exists l, m1 = m ++ l.
Proof.
  destruct (newP env m a) as [Hh|j Hh Hf|Hh Hf Hk|kw Hh Hf Hk]; intros [= <- <-]; repeat split; auto.
  - exists []. now rewrite app_nil_r.
  - rewrite find_key_split, Hf. cbn [find_key fresh c_key]. now rewrite key_eqb_refl.
  - eauto.
Qed.

(* and a call whose key is == to one that is in the memo is answered from it *)
Lemma new_hit env m a k i :
  key_eqb k (norm env a) = true -> forallb hashable k = true -> find_key k m 0 = Some i ->
  new env m a = (OConf i, m).
Proof.
  intros Hk Hh Hf. rewrite (key_eqb_hashable _ _ Hk) in Hh. rewrite (find_key_cong _ _ _ _ Hk) in Hf.
  destruct (newP env m a); congruence.
Qed.

(* whatever was created before (m) and in between (l): a key == to that of an earlier successful call is answered
   with that call's object, and two successful calls return the same object only for == keys *)
Theorem same_object_later env m a b i m1 l :
  new env m a = (OConf i, m1) ->
  key_eqb (norm env a) (norm env b) = true ->
  new env (m1 ++ l) b = (OConf i, m1 ++ l).
Proof.
  intros H Hk. destruct (new_found _ _ _ _ _ H) as (Hh & Hf & _).
  apply (new_hit _ _ _ _ _ Hk Hh). now apply find_key_app.
Qed.

Theorem index_iff_key env m a b i j m1 l m2 :
  new env m a = (OConf i, m1) -> new env (m1 ++ l) b = (OConf j, m2) ->
  i = j <-> key_eqb (norm env a) (norm env b) = true.
Proof.
  intros Ha Hb. destruct (new_found _ _ _ _ _ Ha) as (_ & Fa & _), (new_found _ _ _ _ _ Hb) as (_ & Fb & l' & ->).
  apply find_key_app with (l := l), find_key_app with (l := l') in Fa. split.
  - intros <-. destruct (find_key_nth _ _ _ Fa) as (c & Hn & Ka), (find_key_nth _ _ _ Fb) as (c' & Hn' & Kb).
    assert (c' = c) by congruence. apply key_eqb_canon in Ka, Kb. apply key_eqb_canon. congruence.
  - intros Hk. rewrite (find_key_cong _ _ _ _ Hk) in Fa. congruence.
Qed.

Theorem unhashable_typeerror env m a :
  forallb hashable (norm env a) = false -> new env m a = (ORaiseTypeError, m).
Proof. intros H. destruct (newP env m a); congruence. Qed.

(* read-back: the object returned stores the normalisation of a key equal to the call's *)
Theorem readback env m a i m1 :
  memo_ok m -> new env m a = (OConf i, m1) ->
  exists c, nth_error m1 i = Some c /\ key_eqb (c_key c) (norm env a) = true /\
            mk_kwargs (c_key c) = Some (c_kwargs c).
Proof.
  intros Hm H. pose proof (new_inv env _ a Hm) as Hm1. rewrite H in Hm1.
  destruct (new_found _ _ _ _ _ H) as (_ & Ef & _). destruct (find_key_nth _ _ _ Ef) as (c & Hn & Hk).
  exists c. repeat split; auto. now destruct (memo_ok_nth _ _ _ Hm1 Hn) as (_ & ? & _).
Qed.

(* the same for a reachable memo, which finds every stored object under its own key *)
Lemma new_member env m a i c :
  memo_ok m -> nth_error m i = Some c -> key_eqb (c_key c) (norm env a) = true ->
  new env m a = (OConf i, m).
Proof.
  intros Hm Hn Hk. apply (new_hit _ _ _ _ _ Hk).
  - now destruct (memo_ok_nth _ _ _ Hm Hn).
  - now apply memo_distinct_find; [apply Hm|].
Qed.

Lemma length_set a : forall i v, List.length (set a i v) = List.length a.
Proof. induction a as [|x a IH]; intros [|i] v; cbn; auto. Qed.

Lemma set_get a : forall i, set a i (get a i) = a.
Proof. unfold get. induction a as [|x a IH]; intros [|i]; cbn; f_equal; auto. Qed.

Lemma get_set_other a : forall i j x, j <> i -> get (set a i x) j = get a j.
Proof. unfold get. induction a as [|y a IH]; intros [|i] [|j] x N; cbn; auto. now destruct N. Qed.

Lemma fill_default_length vt i d a : List.length (fill_default vt i d a) = List.length a.
Proof. unfold fill_default. destruct (get a i); auto; apply length_set. Qed.

Definition isnone (v : val) : bool := match v with VNone => true | _ => false end.

Lemma fill_default_passed vt i d a : isnone (get a i) = false -> fill_default vt i d a = a.
Proof. unfold fill_default. now destruct (get a i). Qed.

Lemma fold_deprecated_unpassed a :
  get a i_dep_func = VNone -> get a i_dep_type = VNone -> get a i_dep_557 = VNone ->
  fold_deprecated a = firstn 17 a.
Proof. unfold fold_deprecated. now intros -> -> ->. Qed.

(* conf.kwargs passed back: no deprecated alias is set, and the first 17 are the kwargs *)
Lemma fold_deprecated_kwargs k :
  List.length k = 17 -> fold_deprecated (k ++ [VNone; VNone; VNone]) = k.
Proof.
  intros Hl. rewrite fold_deprecated_unpassed;
    try (unfold get; rewrite app_nth2, Hl by (rewrite Hl; apply Nat.leb_le; reflexivity); reflexivity).
  now rewrite firstn_app, Hl, Nat.sub_diag, app_nil_r, <- Hl, firstn_all.
Qed.

(* Valid keys that compare equal are identical.  Per option: == is identity on the values its validator admits
   (canon is injective there): beside values that are no numbers, which are == only to themselves, it admits
   numbers of one kind only ... *)
Definition canon_inj (P : val -> bool) : Prop :=
  forall u, P u = true -> forall w, P w = true -> canon u = canon w -> u = w.

Lemma canon_plain u w : num_of u = None -> canon u = canon w -> u = w.
Proof.
  unfold canon. intros Eu H. rewrite Eu in H. destruct (num_of w) eqn:Ew; [|exact H].
  subst u. discriminate Eu.
Qed.

Lemma canon_inj_plus Q P :
  canon_inj Q -> (forall v, P v = true -> num_of v = None \/ Q v = true) -> canon_inj P.
Proof.
  intros HQ HP u Hu w Hw H.
  destruct (HP u Hu) as [Eu|Qu]; [now apply canon_plain|].
  destruct (HP w Hw) as [Ew|Qw]; [symmetry; now apply canon_plain|auto].
Qed.

Lemma canon_inj_bool : canon_inj is_bool.
Proof. intros [] Hu; try discriminate Hu. intros [] Hw; try discriminate Hw. now destruct b, b0. Qed.

Lemma canon_inj_enum f : canon_inj (is_enum f).
Proof.
  intros [] Hu; try discriminate Hu. intros [] Hw; try discriminate Hw. apply Nat.eqb_eq in Hu, Hw. subst.
  unfold canon. cbn [num_of]. destruct (existsb _ _); [|auto]. intros [= H]. apply Nat2Z.inj in H. now subst.
Qed.

(* the one place where the validators are told apart: i_place_func, i_place_type, i_strategy and
   i_verbosity take the members of one enumeration, every other option plain values and booleans *)
Lemma field_ok_canon_inj i : canon_inj (field_ok i).
Proof.
  do 17 try destruct i as [|i].
  1, 2, 11, 16: apply canon_inj_enum.
  all: apply (canon_inj_plus _ _ canon_inj_bool); intros [] H; auto.
Qed.

(* ... and per key: valid up to options left unpassed (None), since defaulting only ever replaces a None *)
Definition key_field_ok (i : nat) (v : val) : bool := isnone v || field_ok i v.

Lemma key_field_ok_canon_inj i : canon_inj (key_field_ok i).
Proof. apply (canon_inj_plus _ _ (field_ok_canon_inj i)). intros []; auto. Qed.

Lemma key_field_unfill vt i d a j :
  key_field_ok j (get (fill_default vt i d a) j) = true -> key_field_ok j (get a j) = true.
Proof.
  unfold fill_default. destruct (get a i) eqn:E; auto.
  destruct (Nat.eq_dec j i) as [->|N]; [now rewrite E|now rewrite get_set_other].
Qed.

Lemma fields_ok_get a : forall j i,
  fields_ok j a = true -> i < List.length a -> field_ok (j + i) (get a i) = true.
Proof.
  unfold get. induction a as [|y a IH]; intros j [|i] H L; cbn in *; try lia;
    apply andb_true_iff in H as [H1 H2].
  - now rewrite Nat.add_0_r.
  - rewrite <- Nat.add_succ_comm. apply IH; [exact H2|lia].
Qed.

Lemma mk_kwargs_key_ok k kw : mk_kwargs k = Some kw ->
  List.length k = 17 /\ forall i, i < 17 -> key_field_ok i (get k i) = true.
Proof.
  unfold mk_kwargs, default_kwargs. destruct (negb _); [discriminate|].
  destruct (valid_kwargs _) eqn:Ev; [intros _|discriminate].
  apply andb_true_iff in Ev as [El Ev]. apply Nat.eqb_eq in El.
  split; [now rewrite !fill_default_length in El|]. intros i Li.
  apply (fields_ok_get _ 0 i) in Ev; [|now rewrite El]. cbn in Ev.
  eapply key_field_unfill, key_field_unfill, key_field_unfill.
  unfold key_field_ok. now rewrite Ev, orb_true_r.
Qed.

Theorem valid_lookalikes_identical k k' kw kw' :
  mk_kwargs k = Some kw -> mk_kwargs k' = Some kw' -> key_eqb k k' = true -> k = k' /\ kw = kw'.
Proof.
  intros H H' He. destruct (mk_kwargs_key_ok _ _ H) as [L Hk], (mk_kwargs_key_ok _ _ H') as [L' Hk'].
  apply key_eqb_canon in He. assert (k = k'); [|subst; split; congruence].
  apply (nth_ext _ _ VNone VNone); [congruence|]. intros n Ln. rewrite L in Ln.
  apply (key_field_ok_canon_inj n); [now apply Hk|now apply Hk'|].
  now rewrite <- !(map_nth canon), He.
Qed.

(* BeartypeConf( **conf.kwargs ) is conf, when nothing had to be materialised *)
Lemma mk_kwargs_explicit k kw :
  mk_kwargs k = Some kw ->
  isnone (get k i_vdoor) = false -> isnone (get k i_vparam) = false ->
  isnone (get k i_vreturn) = false -> get k i_tower = VBool false -> kw = k.
Proof.
  unfold mk_kwargs, default_kwargs. intros H H1 H2 H3 Ht.
  rewrite (fill_default_passed _ i_vdoor), (fill_default_passed _ i_vparam),
    (fill_default_passed _ i_vreturn) in H by assumption.
  destruct (negb _); [discriminate|]. destruct (valid_kwargs k); [|discriminate].
  unfold sanify in H. rewrite Ht in H. congruence.
Qed.

Lemma run_inv env h : forall m, memo_ok m -> memo_ok (snd (run env m h)).
Proof.
  induction h as [|a h IH]; intros m Hm; cbn; [exact Hm|].
  pose proof (new_inv env m a Hm) as H. destruct (new env m a) as [o m0].
  cbn [snd] in H. apply IH in H. now destruct (run env m0 h).
Qed.

Lemma run_ops_inv env ops : forall m done, memo_ok m -> memo_ok (snd (run_ops env m done ops)).
Proof.
  induction ops as [|o ops IH]; intros m done Hm; cbn; [exact Hm|].
  destruct o as [a|j].
  - pose proof (new_inv env m a Hm). destruct (new env m a). now apply IH.
  - destruct (nth_error done j) as [[id| | |]|]; try now apply IH.
    destruct (nth_error m id) as [c|]; [|now apply IH].
    pose proof (new_inv env m (kwargs_args c) Hm). destruct (new env m (kwargs_args c)). now apply IH.
Qed.
