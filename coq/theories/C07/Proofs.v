(* C07 proofs over the name-resolution model.  The theorems about whole histories (bound names, self-reference,
   sticky resolution) rest on one notion, [settled]; those about one check read [step] directly (Props/C07.v). *)
From Coq Require Import List.
From BT Require Import C07.Fwd.
Import ListNotations.

Definition calls (es : list event) : list cls :=
  flat_map (fun e => match e with Call oc => [oc] | _ => [] end) es.

(* a binding whose referent is fixed for good: bound at decoration, or a proxy that has resolved to a real class;
   from then on every history is checked against that class, like an evaluated annotation ([settled_run]) *)
Definition settled (c : cls) (b : binding) (st : state) : Prop :=
  match b with Bound c' => c' = c | Proxy _ => memo st = Some (RReal c) end.

Lemma settled_step w b n c st e : settled c b st ->
  settled c b (fst (step w b n st e)) /\
  snd (step w b n st e) = match e with Call oc => Some (evaluated w c oc) | _ => None end.
Proof.
  destruct b as [c'|hp]; cbn [settled]; intros Hs; destruct e; cbn [step fst snd memo]; auto; [now subst|].
  unfold resolve. rewrite Hs. auto.
Qed.

Lemma settled_run w b n c es : forall st, settled c b st -> run w b n st es = map (evaluated w c) (calls es).
Proof.
  induction es as [|e es IH]; intros st Hs; [reflexivity|]. cbn [run].
  destruct (settled_step w b n c st e Hs) as [Hs' Ho]. destruct (step w b n st e) as [st' o]. cbn [fst snd] in *. subst o.
  rewrite (IH st' Hs'). now destruct e.
Qed.

(* the strings whose name the forward scope finds: both C07_string_eq_evaluated and C07_self_reference *)
Lemma decorate_bound w builtins globals plocals s n c st es :
  scope_lookup builtins globals plocals s n = Some c ->
  run w (decorate builtins globals plocals s n) n st es = map (evaluated w c) (calls es).
Proof. intros H. unfold decorate. rewrite H. now apply settled_run. Qed.

(* the whole life of a module-level (parentless) proxy: forward-reference exceptions until the name is a module global at the
   time of a check, the evaluated verdict against that class from then on; a fake proxy never arises *)
Fixpoint spec_module (w : world) (n : name) (g : env) (first : option cls) (es : list event) : list outcome :=
  match es with
  | [] => []
  | DefGlobal m c :: r => spec_module w n ((m, c) :: g) first r
  | Call oc :: r =>
      match first with
      | Some c => evaluated w c oc :: spec_module w n g first r
      | None => match lookup n g with
                | Some c => evaluated w c oc :: spec_module w n g (Some c) r
                | None => FwdRefError :: spec_module w n g None r
                end
      end
  | _ :: r => spec_module w n g first r
  end.

Definition memo_cls (m : option referent) : option cls := match m with Some (RReal c) => Some c | _ => None end.

(* the world and the state of the counterexamples F38, F39 (Props/C07.v) *)
Definition w0 : world :=
  {| cname := fun c => match c with 1 => 7 | 2 => 8 | 3 => 9 | 4 => 7 | _ => 0 end;   (* classes 1 (K) and 4 share the name 7 *)
     ancestors := fun c => match c with 2 => [1] | _ => [] end |}.
Definition gone : state := {| globals := []; parent_alive := false; parent_locals := []; memo := None |}.

(* non-vacuity: a deferred module-level name through its whole life *)
Example module_life :
  run w0 (Proxy false) 7 {| globals := []; parent_alive := false; parent_locals := []; memo := None |}
      [Call 1; Call 3; DefGlobal 7 1; Call 1; Call 2; Call 4; DefGlobal 7 3; Call 3] =
  [FwdRefError; FwdRefError; Pass; Pass; Fail; Fail].
Proof. reflexivity. Qed.
