(* C15 proofs: under every interleaving, get-or-create under a lock hands every caller of one key
   the same object, that object is the one recorded in the cache, and some thread can always move;
   without the lock two callers can be handed different objects. *)
From Coq Require Import List Arith Lia.
From BT Require Import C15.Conc.

Lemma nth_set_nth {A t} {x y : A} {l} :
  nth_error l t = Some y -> forall u, nth_error (set_nth t x l) u = if Nat.eqb u t then Some x else nth_error l u.
Proof. revert t. induction l as [|z l IH]; intros [|t] H [|u]; cbn in *; try discriminate; auto. Qed.

(* what is known about thread t at each program point, given who holds the lock and what the cache holds *)
Definition thread_ok (lk : option nat) (c : list (key * obj)) (t : nat) (th : thread) : Prop :=
  match pc th with
  | 0 => True
  | 1 => lk = Some t
  | 2 => lk = Some t /\ lookup (tkey th) c = None
  | 3 => lk = Some t /\ lookup (tkey th) c = None /\ exists o, tlocal th = Some o
  | 4 => lk = Some t /\ exists o, tlocal th = Some o /\ lookup (tkey th) c = Some o
  | 5 => exists o, tresult th = Some o /\ lookup (tkey th) c = Some o
  | _ => True
  end.

Definition holder_ok (s : state) : Prop :=
  forall h, lock s = Some h -> exists hh, nth_error (threads s) h = Some hh /\ 1 <= pc hh <= 4.

Definition inv (s : state) : Prop :=
  (forall t th, nth_error (threads s) t = Some th -> thread_ok (lock s) (cache s) t th) /\ holder_ok s.

Lemma inv_init keys : inv (init 0 keys).
Proof.
  split.
  - intros t th H. unfold init in H. cbn [threads] in H. apply nth_error_In, in_map_iff in H as (k & <- & _). exact I.
  - intros h H. discriminate.
Qed.

(* a thread that does not hold the lock is outside the critical section *)
Lemma outside lk c u uh : thread_ok lk c u uh -> lk <> Some u -> pc uh = 0 \/ pc uh >= 5.
Proof. unfold thread_ok. destruct (pc uh) as [|[|[|[|[|m]]]]]; intros H Hne; try tauto; right; lia. Qed.

(* entries of the cache are never lost: the cache only grows, by keys that were absent *)
Definition grows (c c' : list (key * obj)) : Prop := forall k v, lookup k c = Some v -> lookup k c' = Some v.

Lemma grows_cons k o c : lookup k c = None -> grows c ((k, o) :: c).
Proof. intros Hk k' v H. cbn. destruct (Nat.eqb_spec k k') as [<-|_]; [congruence|exact H]. Qed.

(* frame: what is known about a thread that does not hold the lock survives whatever the holder does *)
Lemma thread_ok_frame lk c lk' c' u uh : thread_ok lk c u uh -> lk <> Some u -> grows c c' -> thread_ok lk' c' u uh.
Proof.
  intros H Hne Hg. destruct (outside _ _ _ _ H Hne) as [Z|Z]; unfold thread_ok in *.
  - now rewrite Z.
  - destruct (pc uh) as [|[|[|[|[|[|m]]]]]]; try lia. destruct H as (v & Hv & Hl). eauto.
Qed.

(* the one preservation lemma: thread t, which holds the lock or finds it free, moves to th' *)
Lemma upd_inv s t th th' lk c nx :
  inv s -> nth_error (threads s) t = Some th -> (forall h, lock s = Some h -> h = t) -> grows (cache s) c ->
  thread_ok lk c t th' -> (lk = None \/ lk = Some t /\ 1 <= pc th' <= 4) ->
  inv (upd s t th' lk c nx).
Proof.
  intros [Hinv _] Et Hfree Hg Hth Hlk. split; cbn [upd threads lock cache].
  - intros u uh Hu. rewrite (nth_set_nth Et) in Hu. destruct (Nat.eqb_spec u t) as [->|Hne]; [now injection Hu as <-|].
    apply (thread_ok_frame (lock s) (cache s)); [now apply Hinv| |exact Hg]. intros E. now apply Hfree in E.
  - intros h Hh. cbn [upd lock threads] in *. subst lk. destruct Hlk as [|[[= ->] Hpc]]; [discriminate|]. exists th'. now rewrite (nth_set_nth Et), Nat.eqb_refl.
Qed.

Lemma step_inv s t : inv s -> inv (step_locked s t).
Proof.
  intros Hs. unfold step_locked. destruct (nth_error (threads s) t) as [th|] eqn:Et; [|exact Hs].
  pose proof (proj1 Hs t th Et) as Hth. unfold thread_ok in Hth.
  assert (Hg : grows (cache s) (cache s)) by (intros k v H; exact H).
  destruct (pc th) as [|[|[|[|[|n]]]]] eqn:Epc; [| | | | |exact Hs].
  - (* acquire *)
    destruct (lock s) eqn:El; [exact Hs|]. apply (upd_inv s t th); auto; try congruence. right. cbn. split; [reflexivity|lia].
  - (* look up *)
    destruct (lookup (tkey th) (cache s)) as [o|] eqn:Ec; apply (upd_inv s t th); auto; try congruence;
      try (right; cbn; split; [exact Hth|lia]); unfold thread_ok; cbn; eauto.
  - (* create *)
    destruct Hth as [Hl Hc]. apply (upd_inv s t th); auto; try congruence; [|right; cbn; split; [exact Hl|lia]].
    unfold thread_ok; cbn; eauto.
  - (* store *)
    destruct Hth as (Hl & Hc & o & Ho). rewrite Ho.
    apply (upd_inv s t th); auto using grows_cons; try congruence; [|right; cbn; split; [exact Hl|lia]].
    unfold thread_ok; cbn. split; [exact Hl|]. exists o. now rewrite Nat.eqb_refl.
  - (* release *)
    destruct Hth as (Hl & o & Ho & Hc). apply (upd_inv s t th); auto; try congruence.
    unfold thread_ok; cbn. exists o. now rewrite Ho.
Qed.

Lemma run_inv sched : forall s, inv s -> inv (run step_locked s sched).
Proof. induction sched as [|t r IH]; intros s H; [exact H|]. cbn. apply IH. now apply step_inv. Qed.

Lemma reachable_inv keys sched : inv (run step_locked (init 0 keys) sched).
Proof. apply run_inv, inv_init. Qed.

(* callers of one key get one object: the one the cache records *)
Lemma finished_recorded s t th : inv s -> nth_error (threads s) t = Some th -> pc th = 5 ->
  exists o, tresult th = Some o /\ lookup (tkey th) (cache s) = Some o.
Proof. intros [Hinv _] Et Hpc. pose proof (Hinv t th Et) as H. unfold thread_ok in H. now rewrite Hpc in H. Qed.

(* no deadlock: while some call is unfinished, some thread can take a step that changes the state *)
Definition moves (s : state) (t : nat) : Prop := step_locked s t <> s.

Lemma upd_neq s t th th' lk c nx : nth_error (threads s) t = Some th -> pc th' <> pc th -> upd s t th' lk c nx <> s.
Proof.
  intros Et Hpc E. assert (H : nth_error (threads (upd s t th' lk c nx)) t = Some th') by
    (cbn [upd threads]; now rewrite (nth_set_nth Et), Nat.eqb_refl).
  rewrite E, Et in H. congruence.
Qed.

Lemma inv_progress s : inv s -> (exists t th, nth_error (threads s) t = Some th /\ pc th < 5) -> exists t, moves s t.
Proof.
  intros [Hinv Hhold] (t & th & Et & Hpc). destruct (lock s) as [h|] eqn:El.
  - (* the holder can move *)
    destruct (Hhold h El) as (hh & Eh & Hp). exists h. unfold moves, step_locked. rewrite Eh.
    pose proof (Hinv h hh Eh) as Hh. unfold thread_ok in Hh.
    destruct (pc hh) as [|[|[|[|[|n]]]]] eqn:Ep; try lia.
    + destruct (lookup (tkey hh) (cache s)); apply (upd_neq s h hh); auto; cbn; lia.
    + apply (upd_neq s h hh); auto; cbn; lia.
    + destruct Hh as [_ [_ [o Ho]]]. rewrite Ho. apply (upd_neq s h hh); auto; cbn; lia.
    + apply (upd_neq s h hh); auto; cbn; lia.
  - (* the lock is free: t itself can acquire it (it is at 0, the only unfinished point outside the lock) *)
    exists t. unfold moves, step_locked. rewrite Et.
    destruct (outside _ _ _ _ (Hinv t th Et)) as [Z|Z]; [congruence| |lia]. rewrite Z, El.
    apply (upd_neq s t th); auto. cbn. lia.
Qed.
