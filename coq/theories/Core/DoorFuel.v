(* C19: one level of the is_subhint model (Core/Door.v) as a non-recursive functional, and the fuel
   theorem.  [sub] and [eqh] recurse on explicit fuel and answer [RFuel] when it runs out.
   [sub_approx] / [eqh_approx] say the one thing there is to say about fuel: the answer at fuel n is
   "out of fuel" only when n is no more than the size of the pair (plus one for [eqh]), and otherwise it is the answer at
   every larger fuel.  Adequacy of the fuel [is_subhint] supplies and independence of the answer from
   the fuel are its two readings. *)
From Coq Require Import List Bool Arith Lia.
From BT Require Import Gen.ClassTable Core.PyVal Core.Hint Core.Door.
Import ListNotations.

(* The bodies of [sub (S n)] and [eqh (S n)] of Core/Door.v with [sub n] and [eqh n] abstracted
   ([sub_S], [eqh_S] hold by conversion).  Every proof about the model goes through these. *)
Section Step.
  Variables sb eh : hint -> hint -> r3.

  (* TypeHint._is_subhint_branch (doorsuper.py), the test the subscripted wrappers inherit *)
  Definition branch_sub (a br : hint) : r3 :=
    if negb (issub (origin a) (origin br)) then RF
    else if args_ignorable br then RT
    else if negb (wrapper_instance (kind_of a) (kind_of br)) then RF
    else if negb (Nat.eqb (List.length (children a)) (List.length (children br))) then RX
    else all3_2 sb (children a) (children br).

  (* TypeHint._is_subhint_branch of the wrapper of [a] *)
  Definition branch (a br : hint) : r3 :=
    match a with
    | HCls c => r3_of (args_ignorable br && issub c (origin br))
    | HAnnot mh vs =>
        match br with
        | HAnnot mh' vs' =>
            match sb mh mh' with
            | RT => if negb (Nat.eqb (List.length vs) (List.length vs')) then RF else r3_of (vexps_eqb vs vs')
            | o => o
            end
        | _ => sb mh br
        end
    | HTuple hs =>
        if args_ignorable br then r3_of (issub c_tuple (origin br))
        else match kind_of br, br with
             | KTupleVar, HCont _ ch => all3 (fun h => sb h ch) hs
             | KTupleFixed, HTuple hs' =>
                 if negb (Nat.eqb (List.length hs) (List.length hs')) then RF else all3_2 sb hs hs'
             | _, _ => RF
             end
    | HLiteral vs =>
        match br with
        | HLiteral ws => r3_of (forallb (fun v => existsb (fun w => py_eq v w) ws) vs)
        | _ => if negb (issub c_object (origin br)) then RF else r3_of (args_ignorable br)
        end
    | _ => branch_sub a br
    end.

  Definition base (a b : hint) : r3 := any3 (fun br => if is_any br then RT else branch a br) (branches b).

  Definition sub_step (a b : hint) : r3 :=
    if is_any a || is_any b then RT else
    match a with
    | HUnion hs =>
        all3 (fun this => match b with HUnion bs => any3 (sb this) bs | _ => sb this b end) hs
    | HLiteral vs =>
        match b with
        | HLiteral ws => r3_of (forallb (fun v => existsb (fun w => py_eq v w) ws) vs)
        | _ => match all3 (fun v => sb (HCls (type_of v)) b) vs with RF => base a b | o => o end
        end
    | _ => base a b
    end.

  Definition eqh_step (a b : hint) : r3 :=
    match kind_of a, a with
    | (KSub | KTupleVar), _ =>
        if args_ignorable a && args_ignorable b then r3_of (Nat.eqb (origin a) (origin b))
        else if negb (same_sign a b) || negb (Nat.eqb (List.length (children a)) (List.length (children b))) then RF
        else all3_2 eh (children a) (children b)
    | KAnnot, HAnnot mh vs =>
        match b with
        | HAnnot mh' vs' => and3 (eh mh mh') (fun _ => r3_of (vexps_eqb vs vs'))
        | _ => RF
        end
    | _, _ => and3 (sb a b) (fun _ => sb b a)
    end.
End Step.

(* [sub] and [eqh] once more, over the two functionals.  Comparing [sub (S n) a b] with
   [sub_step (sub n) a b] directly makes the checker compare the whole body of the mutual fixpoint
   with itself at each of its recursive calls (seconds); comparing the two fixpoints once, call for
   call, is immediate. *)
Fixpoint sub_ (n : nat) (a b : hint) {struct n} : r3 :=
  match n with 0 => RFuel | S n' => sub_step (sub_ n') a b end
with eqh_ (n : nat) (a b : hint) {struct n} : r3 :=
  match n with 0 => RFuel | S n' => eqh_step (sub_ n') (eqh_ n') a b end.

Lemma sub_sub_ : sub_ = sub.
Proof. reflexivity. Qed.

Lemma eqh_eqh_ : eqh_ = eqh.
Proof. reflexivity. Qed.

Lemma sub_S n a b : sub (S n) a b = sub_step (sub n) a b.
Proof. rewrite <- sub_sub_. reflexivity. Qed.

Lemma eqh_S n a b : eqh (S n) a b = eqh_step (sub n) (eqh n) a b.
Proof. rewrite <- sub_sub_, <- eqh_eqh_. reflexivity. Qed.

Lemma any3_single {A} (f : A -> r3) x : any3 f [x] = f x.
Proof. cbn. now destruct (f x). Qed.

(* a member of a union on the left is compared with the branches of the right-hand side *)
Lemma any3_branches (f : hint -> r3) b : match b with HUnion bs => any3 f bs | _ => f b end = any3 f (branches b).
Proof. destruct b; try reflexivity; symmetry; apply any3_single. Qed.

Lemma branches_single h : (forall hs, h <> HUnion hs) -> branches h = [h].
Proof. intros H. destruct h; try reflexivity. now destruct (H hs). Qed.

Lemma hsize_in x hs : In x hs -> hsize x < S (fold_right (fun y acc => hsize y + acc) 0 hs).
Proof.
  induction hs as [|h hs IH]; cbn [In fold_right]; [tauto|]. intros [->|Hin]; [lia|].
  specialize (IH Hin). lia.
Qed.

Lemma hsize_classes cs : fold_right (fun y acc => hsize y + acc) 0 (map HCls cs) = List.length cs.
Proof. induction cs as [|c cs IH]; cbn [map fold_right hsize List.length]; [reflexivity|]. rewrite IH. reflexivity. Qed.

Lemma hsize_children x h : In x (children h) -> hsize x < hsize h.
Proof.
  destruct h; cbn [children In hsize]; try tauto.
  - apply hsize_in.
  - intros [<-|[]]. lia.
  - intros [<-|[<-|[]]]; lia.
  - intros [<-|[]]. lia.
  - apply hsize_in.
  - destruct cs as [|c [|d cs']]; cbn [In]; intros [<-|[]]; cbn [hsize]; rewrite ?hsize_classes; cbn [List.length]; lia.
  - intros [<-|[]]. lia.
Qed.

Lemma hsize_branches br b : In br (branches b) -> hsize br <= hsize b.
Proof.
  destruct b; cbn [branches In]; try (intros [<-|[]]; lia).
  intros Hin. apply hsize_in in Hin. cbn [hsize]. lia.
Qed.

(* [r] is the answer [r'], or is "out of fuel", which only [p] excuses *)
Definition rel3 (p : Prop) (r r' : r3) : Prop := match r with RFuel => p | _ => r' = r end.

Lemma rel3_of p b : rel3 p (r3_of b) (r3_of b).
Proof. now destruct b. Qed.

Lemma rel3_weaken (p q : Prop) r r' : (p -> q) -> rel3 p r r' -> rel3 q r r'.
Proof. destruct r; cbn; auto. Qed.

Lemma rel3_answered p r r' : rel3 p r r' -> ~ p -> r <> RFuel.
Proof. destruct r; cbn; auto; discriminate. Qed.

Lemma rel3_stable p r r' : rel3 p r r' -> r <> RFuel -> r' = r.
Proof. destruct r; cbn; auto. contradiction. Qed.

(* sequencing as in all(...) and as in any(...); written out in the form the matches of [sub] have *)
Lemma seq3_rel p a a' b b' : rel3 p a a' -> rel3 p b b' ->
  rel3 p (match a with RT => b | RF => RF | RX => RX | RFuel => RFuel end)
         (match a' with RT => b' | RF => RF | RX => RX | RFuel => RFuel end).
Proof. destruct a; cbn; try intros ->; auto. Qed.

Lemma alt3_rel p a a' b b' : rel3 p a a' -> rel3 p b b' ->
  rel3 p (match a with RF => b | RT => RT | RX => RX | RFuel => RFuel end)
         (match a' with RF => b' | RT => RT | RX => RX | RFuel => RFuel end).
Proof. destruct a; cbn; try intros ->; auto. Qed.

Lemma and3_rel p a a' b b' : rel3 p a a' -> rel3 p (b tt) (b' tt) -> rel3 p (and3 a b) (and3 a' b').
Proof. destruct a; cbn; try intros ->; auto. Qed.

Lemma all3_rel {A} p (f g : A -> r3) l : (forall x, In x l -> rel3 p (f x) (g x)) -> rel3 p (all3 f l) (all3 g l).
Proof.
  induction l as [|a l IH]; intros H; [reflexivity|].
  apply (seq3_rel p (f a) (g a)); [apply H; now left|]. apply IH. intros x Hx. apply H. now right.
Qed.

Lemma any3_rel {A} p (f g : A -> r3) l : (forall x, In x l -> rel3 p (f x) (g x)) -> rel3 p (any3 f l) (any3 g l).
Proof.
  induction l as [|a l IH]; intros H; [reflexivity|].
  apply (alt3_rel p (f a) (g a)); [apply H; now left|]. apply IH. intros x Hx. apply H. now right.
Qed.

Lemma all3_2_rel p f g l m : (forall x y, In x l -> In y m -> rel3 p (f x y) (g x y)) ->
  rel3 p (all3_2 f l m) (all3_2 g l m).
Proof.
  revert m. induction l as [|a l IH]; intros [|b m] H; try reflexivity.
  apply (seq3_rel p (f a b) (g a b)); [apply H; now left|]. apply IH. intros x y Hx Hy. apply H; now right.
Qed.

Lemma branch_sub_rel p sb sb' a br :
  (forall x y, In x (children a) -> In y (children br) -> rel3 p (sb x y) (sb' x y)) ->
  rel3 p (branch_sub sb a br) (branch_sub sb' a br).
Proof.
  intros H. unfold branch_sub.
  destruct (negb (issub _ _)); [reflexivity|]. destruct (args_ignorable br); [reflexivity|].
  destruct (negb (wrapper_instance _ _)); [reflexivity|]. destruct (negb (Nat.eqb _ _)); [reflexivity|].
  now apply all3_2_rel.
Qed.

(* The level below is consulted on strictly smaller pairs only. *)
Lemma branch_rel p sb sb' a br :
  (forall x y, hsize x < hsize a -> hsize y <= hsize br -> rel3 p (sb x y) (sb' x y)) ->
  rel3 p (branch sb a br) (branch sb' a br).
Proof.
  intros H.
  assert (Hch : forall x y, In x (children a) -> In y (children br) -> rel3 p (sb x y) (sb' x y)).
  { intros x y Hx%hsize_children Hy%hsize_children. apply H; lia. }
  destruct a; try exact (branch_sub_rel p sb sb' _ br Hch); cbn [branch].
  - apply rel3_of.
  - (* a fixed tuple *)
    destruct (args_ignorable br); [apply rel3_of|].
    destruct (kind_of br), br; try reflexivity.
    + destruct (negb _); [reflexivity|]. now apply all3_2_rel.
    + apply all3_rel. intros x Hx. apply Hch; [exact Hx|now left].
  - (* a literal *)
    destruct br; try apply rel3_of; destruct (negb _); try reflexivity; apply rel3_of.
  - (* Annotated *)
    destruct br; try (apply H; cbn [hsize]; lia).
    apply seq3_rel; [apply H; cbn [hsize]; lia|]. destruct (negb _); [reflexivity|apply rel3_of].
Qed.

Lemma sub_step_rel p sb sb' a b :
  (forall x y, hsize x + hsize y < hsize a + hsize b -> rel3 p (sb x y) (sb' x y)) ->
  rel3 p (sub_step sb a b) (sub_step sb' a b).
Proof.
  intros H. unfold sub_step. destruct (is_any a || is_any b); [reflexivity|].
  assert (B : rel3 p (base sb a b) (base sb' a b)).
  { apply any3_rel. intros br Hbr%hsize_branches. destruct (is_any br); [reflexivity|].
    apply branch_rel. intros x y Hx Hy. apply H. lia. }
  destruct a; try exact B.
  - (* a union *)
    apply all3_rel. intros this Hthis%hsize_in. rewrite !any3_branches.
    apply any3_rel. intros that Hthat%hsize_branches. apply H. cbn [hsize]. lia.
  - (* a literal: the classes of its members first *)
    assert (L : forall v, In v vs -> rel3 p (sb (HCls (type_of v)) b) (sb' (HCls (type_of v)) b)).
    { intros v Hv. apply H. destruct vs; [destruct Hv|]. cbn [hsize List.length]. lia. }
    destruct b; try apply rel3_of; (apply alt3_rel; [now apply all3_rel|exact B]).
Qed.

Lemma eqh_step_rel p sb sb' eh eh' a b :
  (forall x y, In x (children a) -> In y (children b) -> rel3 p (eh x y) (eh' x y)) ->
  rel3 p (sb a b) (sb' a b) -> rel3 p (sb b a) (sb' b a) ->
  rel3 p (eqh_step sb eh a b) (eqh_step sb' eh' a b).
Proof.
  intros He Hab Hba.
  assert (G : rel3 p (and3 (sb a b) (fun _ => sb b a)) (and3 (sb' a b) (fun _ => sb' b a))) by now apply and3_rel.
  unfold eqh_step. destruct (kind_of a); try exact G.
  2,3: (* the two subscripted kinds *) destruct (_ && _); [apply rel3_of|]; destruct (_ || _); [reflexivity|]; now apply all3_2_rel.
  destruct a; try exact G.
  destruct b; try reflexivity. apply and3_rel; [apply He; now left|apply rel3_of].
Qed.

Theorem sub_approx n : forall m a b, n <= m -> rel3 (n <= hsize a + hsize b) (sub n a b) (sub m a b).
Proof.
  induction n as [|n IH]; intros m a b Hm; [cbn; lia|].
  destruct m as [|m]; [lia|]. rewrite !sub_S. apply sub_step_rel. intros x y Hxy.
  apply (rel3_weaken (n <= hsize x + hsize y)); [lia|]. apply IH. lia.
Qed.

Theorem eqh_approx n : forall m a b, n <= m -> rel3 (n <= hsize a + hsize b + 1) (eqh n a b) (eqh m a b).
Proof.
  induction n as [|n IH]; intros m a b Hm; [cbn; lia|].
  destruct m as [|m]; [lia|]. rewrite !eqh_S. apply eqh_step_rel.
  - intros x y Hx%hsize_children Hy%hsize_children.
    apply (rel3_weaken (n <= hsize x + hsize y + 1)); [lia|]. apply IH. lia.
  - apply (rel3_weaken (n <= hsize a + hsize b)); [lia|]. apply sub_approx. lia.
  - apply (rel3_weaken (n <= hsize b + hsize a)); [lia|]. apply sub_approx. lia.
Qed.

Lemma sub_answered n a b : hsize a + hsize b < n -> sub n a b <> RFuel.
Proof. intros H. apply (rel3_answered _ _ _ (sub_approx n n a b (le_n n))). lia. Qed.

Lemma eqh_answered n a b : hsize a + hsize b + 1 < n -> eqh n a b <> RFuel.
Proof. intros H. apply (rel3_answered _ _ _ (eqh_approx n n a b (le_n n))). lia. Qed.

Theorem is_subhint_has_fuel a b : is_subhint a b <> RFuel.
Proof. apply sub_answered. lia. Qed.

Theorem hint_equal_has_fuel a b : hint_equal a b <> RFuel.
Proof. apply eqh_answered. lia. Qed.

Lemma sub_stable n m a b : n <= m -> sub n a b <> RFuel -> sub m a b = sub n a b.
Proof. intros Hm. exact (rel3_stable _ _ _ (sub_approx n m a b Hm)). Qed.

Lemma eqh_stable n m a b : n <= m -> eqh n a b <> RFuel -> eqh m a b = eqh n a b.
Proof. intros Hm. exact (rel3_stable _ _ _ (eqh_approx n m a b Hm)). Qed.

(* [is_subhint] / [hint_equal] are the model at every sufficient fuel: more fuel changes nothing *)
Theorem sub_fuel_independent n a b : 2 * (hsize a + hsize b) + 2 <= n -> sub n a b = is_subhint a b.
Proof. intros Hn. apply (sub_stable _ n a b Hn), is_subhint_has_fuel. Qed.

Theorem eqh_fuel_independent n a b : 2 * (hsize a + hsize b) + 2 <= n -> eqh n a b = hint_equal a b.
Proof. intros Hn. apply (eqh_stable _ n a b Hn), hint_equal_has_fuel. Qed.

(* and an answer obtained at ANY fuel, if not "out of fuel", is the answer of the public function *)
Theorem sub_any_fuel n a b : sub n a b <> RFuel -> sub n a b = is_subhint a b.
Proof.
  intros H. destruct (Nat.le_ge_cases n (2 * (hsize a + hsize b) + 2)) as [L|L].
  - symmetry. now apply sub_stable.
  - now apply sub_fuel_independent.
Qed.
