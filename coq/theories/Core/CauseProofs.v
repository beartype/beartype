(* C03 proofs: whenever the generated check rejects, the explanation path finds a cause (no
   desynchronisation), under both strategies; and whatever it reports is a genuine violation of
   the hint's full-depth meaning. *)
From Coq Require Import List ZArith Bool Lia.
From BT Require Import Gen.ClassTable Gen.SignSets.
From BT Require Import Core.PyVal Core.Hint Core.Check Core.ClassFacts Core.CheckFacts Core.GenProofs Core.Cause.
Import ListNotations.

Section CauseProofs.
  Variable cf : gconf.
  Variable ai : bool.
  Variable r : Z.
  Variable pb : nat -> pyval -> bool.

  Notation fc := (fc cf ai r pb).
  Notation chk := (chk cf r pb).

  Definition fc_tuple (y : pyval) :=
    fix go (l : list hint) (n : nat) : bool :=
      match l with
      | [] => false
      | h' :: l' => (negb (ignorable h') && fc h' (nth n (items y) VNone)) || go l' (S n)
      end.

  (* what is said about the inspected entries of a mapping: all of them, or the first *)
  Definition fc_entries (one : pyval * pyval -> bool) (y : pyval) : bool :=
    match y with
    | VMap _ kvs => if ai then existsb one kvs else match kvs with kx :: _ => one kx | [] => false end
    | _ => false
    end.

  Definition explains (h : hint) : Prop := forall y, wf y = true -> chk h y = false -> fc h y = true.

  Lemma explains_cont s ch : sign_family s <> None -> explains ch -> explains (HCont s ch).
  Proof.
    intros Hf IH y Hw Hc. cbn [Cause.fc]. destruct (sign_family s) as [fam|] eqn:Ef; [|congruence].
    destruct (ignorable ch) eqn:Hig.
    { cbn [chk] in Hc. rewrite Hig in Hc. now rewrite Hc. }
    rewrite (chk_cont cf r pb s ch fam y Hig Ef) in Hc.
    destruct (isinst y [sign_origin s]) eqn:Hi; [|reflexivity]. cbn [andb negb orb] in *.
    apply orb_false_iff in Hc as [Hc Hx]. apply orb_false_iff in Hc as [Hg Hl].
    rewrite isinst_single, (family_collection s fam y Ef Hi Hg), Hl. cbn [negb].
    apply len0_false in Hl. pose proof (IH _ (wf_cause_item cf r fam y Hw Hl) Hx) as Hy.
    destruct ai; [|exact Hy]. apply existsb_exists. eauto using cause_item_in.
  Qed.

  (* mappings and Counter differ in the check of the value only *)
  Lemma explains_mapping o kh (vc vf : pyval -> bool) y :
    issub o c_Mapping = true -> explains kh -> (forall x, wf x = true -> vc x = false -> vf x = true) -> wf y = true ->
    isinst y [o] &&
      (len0 y || (if ignorable kh then true else chk kh (first y)) &&
                 vc (if ignorable kh then first_value y else value_of_first_key y)) = false ->
    negb (isinst y [o]) ||
      (if len0 y then false
       else fc_entries (fun kx => (negb (ignorable kh) && fc kh (fst kx)) || vf (snd kx)) y) = true.
  Proof.
    intros Ho IHk IHv Hw Hc. destruct (isinst y [o]) eqn:Hi; [|reflexivity]. cbn [negb orb andb] in *.
    destruct (len0 y) eqn:Hl; [discriminate|]. apply len0_false in Hl.
    destruct (map_nonempty y Hw (isinst_sub y o c_Mapping ltac:(discriminate) Hi Ho) Hl) as (c & k0 & x0 & rest & ->).
    destruct (map_head _ _ _ _ Hw) as (Hwk & Hwx & E1 & E2 & E3 & _). cbn [orb] in Hc. rewrite E1, E2, E3 in Hc.
    assert (Hone : (negb (ignorable kh) && fc kh k0) || vf x0 = true).
    { apply andb_false_iff in Hc as [Hc|Hc].
      - destruct (ignorable kh); [discriminate|]. now rewrite (IHk k0 Hwk Hc).
      - destruct (ignorable kh); rewrite (IHv x0 Hwx Hc); apply orb_true_r. }
    cbn [fc_entries]. destruct ai; [|exact Hone]. cbn [existsb fst snd]. now rewrite Hone.
  Qed.

  Lemma explains_tuple_go y : wf y = true -> forall l n, Forall explains l -> n + List.length l <= List.length (items y) ->
    tuple_chk cf r pb y l n = false -> fc_tuple y l n = true.
  Proof.
    intros Hw l. induction l as [|h' l IH]; intros n Hnd Hlen Hgo; [discriminate|].
    inversion Hnd as [|? ? Hh Hrest]; subst. cbn [tuple_chk fc_tuple List.length] in *.
    apply andb_false_iff in Hgo as [Hgo|Hgo].
    - destruct (ignorable h'); [discriminate|]. now rewrite (Hh _ (wf_nth y n Hw ltac:(lia)) Hgo).
    - rewrite (IH (S n)); auto; [apply orb_true_r|lia].
  Qed.

  Theorem no_desync h : hint_ok h = true -> explains h.
  Proof.
    apply hint_ok_ind.
    - (* Any *) intros y _ H. discriminate.
    - (* a class *) intros c y _ H. cbn [Check.chk Cause.fc] in *. now rewrite H.
    - (* a shallow subscription *) intros c y _ H. cbn [Check.chk Cause.fc] in *. now rewrite H.
    - (* a union *) intros hs _ IH y Hw Hc. rewrite chk_union, existsb_false in Hc. rewrite Forall_forall in IH.
      apply (forallb_forall (fun h' => fc h' y)). intros h' Hin. exact (IH h' Hin y Hw (Hc h' Hin)).
    - (* a container *) exact explains_cont.
    - (* a mapping *) intros s k v Hin IHk IHv y Hw Hc.
      refine (explains_mapping (map_origin s) k (fun x => if ignorable v then true else chk v x)
                (fun x => negb (ignorable v) && fc v x) y (map_origin_mapping s Hin) IHk _ Hw Hc).
      intros x Hwx Hx. destruct (ignorable v); [discriminate|]. now apply IHv.
    - (* Counter *) intros k IHk y Hw Hc.
      refine (explains_mapping counter_origin k (fun x => isinst x [c_int]) (fun x => negb (isinst x [c_int])) y
                counter_origin_mapping IHk _ Hw Hc).
      intros x _ ->. reflexivity.
    - (* a fixed tuple *) intros hs IH y Hw Hc. rewrite chk_tuple_unfold in Hc. cbn [Cause.fc]. fold (fc_tuple y).
      destruct (isinst y [c_tuple]); [|reflexivity].
      destruct (Nat.eqb_spec (List.length (items y)) (List.length hs)) as [Hl|]; [|reflexivity].
      apply (explains_tuple_go y Hw hs 0 IH); [lia|exact Hc].
    - (* literals *) intros vs _ y Hw Hc. cbn [chk] in Hc. cbn [Cause.fc]. apply negb_true_iff, existsb_false. intros v Hin.
      apply andb_false_iff in Hc as [Hc|Hc]; apply andb_false_iff; [left|right].
      + rewrite isinst_single. exact (proj1 (existsb_false _ _) Hc _ (in_map type_of _ _ Hin)).
      + exact (proj1 (existsb_false _ _) Hc v Hin).
    - (* type[...] *) intros cs y _ H. cbn [chk] in H. cbn [Cause.fc].
      destruct (isinst y [c_type]); [|reflexivity]. cbn [andb negb orb] in *. now rewrite H.
    - (* Annotated *) intros mh vs IH y Hw Hc. cbn [chk] in Hc. cbn [Cause.fc]. apply andb_false_iff in Hc as [Hc|Hc].
      + destruct (ignorable mh); [discriminate|]. now rewrite (IH y Hw Hc).
      + now rewrite existsb_negb, Hc, orb_true_r.
  Qed.

  Definition genuine (h : hint) : Prop := forall y, wf y = true -> sat pb h y = true -> fc h y = false.

  Lemma genuine_cont s ch : genuine ch -> genuine (HCont s ch).
  Proof.
    intros IH y Hw Hs. cbn [sat] in Hs. apply andb_true_iff in Hs as [Hi Hitems]. cbn [Cause.fc]. rewrite Hi.
    destruct (ignorable ch); [reflexivity|]. destruct (isinst y [c_Collection]) eqn:Hc; [|reflexivity].
    destruct (len0 y) eqn:Hl; [reflexivity|]. apply len0_false in Hl. cbn [negb orb].
    rewrite isinst_single in Hc. rewrite (coll_items_some y Hw Hc), forallb_forall in Hitems.
    assert (Hall : forall x, In x (items y) -> fc ch x = false) by (intros x Hx; apply IH; eauto using wf_items).
    destruct (sign_family s) as [fam|]; [|reflexivity].
    destruct ai; [now apply existsb_false|]. now apply Hall, cause_item_in.
  Qed.

  Lemma genuine_mapping o kh (vs vf : pyval -> bool) y :
    genuine kh -> (forall x, wf x = true -> vs x = true -> vf x = false) -> wf y = true ->
    isinst y [o] && match y with
                    | VMap _ kvs => forallb (fun kv => sat pb kh (fst kv) && vs (snd kv)) kvs
                    | _ => true
                    end = true ->
    negb (isinst y [o]) ||
      (if len0 y then false
       else fc_entries (fun kx => (negb (ignorable kh) && fc kh (fst kx)) || vf (snd kx)) y) = false.
  Proof.
    intros IHk IHv Hw [-> Hkv]%andb_true_iff. cbn [negb orb].
    destruct (len0 y); [reflexivity|]. destruct y as [| | | | | | |c kvs| |]; try reflexivity.
    rewrite forallb_forall in Hkv.
    assert (Hone : forall kx, In kx kvs -> (negb (ignorable kh) && fc kh (fst kx)) || vf (snd kx) = false).
    { intros [k x] Hin. destruct (proj1 (andb_true_iff _ _) (Hkv _ Hin)) as [H1 H2]. cbn [fst snd] in *.
      destruct (wf_entry _ _ _ _ Hw Hin) as (W1 & W2 & _).
      now rewrite (IHk _ W1 H1), (IHv _ W2 H2), andb_false_r. }
    cbn [fc_entries]. destruct ai; [now apply existsb_false|]. destruct kvs as [|kx rest]; [reflexivity|].
    apply Hone. now left.
  Qed.

  Lemma sat_all2_nth hs : forall l, sat_all2 pb hs l = true ->
    List.length l = List.length hs /\ forall k h, nth_error hs k = Some h -> sat pb h (nth k l VNone) = true.
  Proof.
    induction hs as [|h0 hs IH]; intros [|x l] H; try discriminate; [split; [reflexivity|now intros [|k]]|].
    cbn [sat_all2] in H. apply andb_true_iff in H as [Hx Hl]. destruct (IH l Hl) as [Hlen Hn].
    split; [cbn; now rewrite Hlen|]. intros [|k] h; cbn; [now intros [= <-]|apply Hn].
  Qed.

  Lemma genuine_tuple_go y : wf y = true -> forall l n, Forall genuine l -> n + List.length l <= List.length (items y) ->
    (forall k h, nth_error l k = Some h -> sat pb h (nth (n + k) (items y) VNone) = true) -> fc_tuple y l n = false.
  Proof.
    intros Hw l. induction l as [|h' l IH]; intros n Hg Hlen Hs; [reflexivity|].
    inversion Hg as [|? ? Hh Hrest]; subst. cbn [fc_tuple List.length] in *.
    rewrite (Hh _ (wf_nth y n Hw ltac:(lia))), andb_false_r by (rewrite <- (Nat.add_0_r n); now apply (Hs 0)).
    apply IH; auto; [lia|]. intros k h Hk. rewrite Nat.add_succ_comm. now apply (Hs (S k)).
  Qed.

  Theorem cause_genuine h : hint_ok h = true -> genuine h.
  Proof.
    apply hint_ok_ind.
    - (* Any *) intros y _ _. reflexivity.
    - (* a class *) intros c y _ H. cbn [sat Cause.fc] in *. now rewrite H.
    - (* a shallow subscription *) intros c y _ H. cbn [sat Cause.fc] in *. now rewrite H.
    - (* a union *) intros hs _ IH y Hw Hs. rewrite sat_union in Hs. cbn [Cause.fc].
      induction IH as [|h' l Hh Hl IHl]; [discriminate|]. apply orb_true_iff in Hs as [Hs|Hs].
      + now rewrite (Hh y Hw Hs).
      + rewrite (IHl Hs). apply andb_false_r.
    - (* a container *) intros s ch _. apply genuine_cont.
    - (* a mapping *) intros s k v _ IHk IHv y Hw Hs.
      refine (genuine_mapping (map_origin s) k (sat pb v) (fun x => negb (ignorable v) && fc v x) y IHk _ Hw Hs).
      intros x Hwx Hx. now rewrite (IHv x Hwx Hx), andb_false_r.
    - (* Counter *) intros k IHk y Hw Hs.
      refine (genuine_mapping counter_origin k (fun x => isinst x [c_int]) (fun x => negb (isinst x [c_int])) y IHk _ Hw Hs).
      now intros x _ ->.
    - (* a fixed tuple *) intros hs IH y Hw Hs. rewrite sat_tuple_unfold in Hs. apply andb_true_iff in Hs as [Hi Hall].
      cbn [Cause.fc]. fold (fc_tuple y). rewrite Hi. destruct (items_of y) as [l|] eqn:El; [|discriminate].
      assert (Hit : items y = l) by (unfold items; now rewrite El).
      destruct (sat_all2_nth hs l Hall) as [Hlen Hn]. rewrite Hit, Hlen, Nat.eqb_refl. cbn [negb orb].
      apply (genuine_tuple_go y Hw hs 0 IH); rewrite Hit; [lia|exact Hn].
    - (* literals *) intros vs Hok y Hw Hs. cbn [sat] in Hs. cbn [Cause.fc]. apply negb_false_iff.
      apply existsb_exists in Hs as (v & Hin & [Heq Hty%Nat.eqb_eq]%andb_true_iff).
      rewrite forallb_forall in Hok. apply existsb_exists. exists v. split; [exact Hin|].
      rewrite Heq, andb_true_r, isinst_single, Hty. now apply literal_class_refl, Hok.
    - (* type[...] *) intros cs y Hw Hs. cbn [sat] in Hs. cbn [Cause.fc].
      destruct y; cbn [issubcls] in Hs; try discriminate. cbn [issubcls]. now rewrite Hs.
    - (* Annotated *) intros mh vs IH y Hw Hs. cbn [sat] in Hs. apply andb_true_iff in Hs as [Hm Hv]. cbn [Cause.fc].
      now rewrite (IH y Hw Hm), andb_false_r, existsb_negb, Hv.
  Qed.
End CauseProofs.
