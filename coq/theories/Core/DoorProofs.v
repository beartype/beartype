(* C19 proofs about the model of is_subhint (Core/Door.v): it never answers False on (h, h); on classes and
   unions of classes it is [sub_flat]; on [simple] hints a True answer is sound for [sat].  Reflexivity and
   soundness are proved for one level ([sub_step], [eqh_step] of DoorFuel.v) over any level below with the
   same property, and then for every fuel by induction on it. *)
From Coq Require Import List ZArith Bool.
From BT Require Import Gen.ClassTable Gen.SignSets Core.PyVal Core.Hint Core.ClassFacts Core.Induct Core.Door Core.DoorFuel Core.CheckFacts.
Import ListNotations.

Lemma any3_RT {A} (f : A -> r3) l : any3 f l = RT -> exists x, In x l /\ f x = RT.
Proof.
  induction l as [|a l IH]; cbn; [discriminate|]. destruct (f a) eqn:E; try discriminate.
  - intros _. exists a. auto.
  - intros H. destruct (IH H) as (x & Hin & Hx). exists x. auto.
Qed.

Lemma any3_not_RF {A} (f : A -> r3) l x : In x l -> f x <> RF -> any3 f l <> RF.
Proof.
  induction l as [|a l IH]; cbn; [tauto|]. intros [->|Hin] Hx.
  - destruct (f x); congruence.
  - destruct (f a); try congruence. now apply IH.
Qed.

Lemma all3_RT {A} (f : A -> r3) l : all3 f l = RT -> forall x, In x l -> f x = RT.
Proof.
  induction l as [|a l IH]; cbn; [tauto|]. destruct (f a) eqn:E; try discriminate.
  intros H x [<-|Hin]; auto.
Qed.

Lemma all3_not_RF {A} (f : A -> r3) l : (forall x, In x l -> f x <> RF) -> all3 f l <> RF.
Proof.
  induction l as [|a l IH]; cbn; [discriminate|]. intros H.
  destruct (f a) eqn:E; try congruence.
  - apply IH. intros x Hx. apply H. now right.
  - exfalso. apply (H a); auto.
Qed.

Lemma all3_2_RT f (R : hint -> hint -> Prop) l : (forall x y, f x y = RT -> R x y) ->
  forall m, List.length l = List.length m -> all3_2 f l m = RT -> Forall2 R l m.
Proof.
  intros H. induction l as [|a l IH]; intros [|b m]; try discriminate; cbn; [constructor|]. intros [= Hl].
  destruct (f a b) eqn:E; try discriminate. constructor; auto.
Qed.

Lemma all3_2_diag f l : all3_2 f l l = all3 (fun x => f x x) l.
Proof. induction l as [|a l IH]; [reflexivity|]. cbn. now rewrite IH. Qed.

Definition lit_ok (v : pyval) : bool :=
  match v with VNone | VBool _ | VInt _ | VStr _ | VBytes _ => true | _ => false end.

Fixpoint vexp_ok (v : vexp) : bool :=
  match v with
  | VEqual x => py_eq x x
  | VAttr _ w | VNot w => vexp_ok w
  | VAnd a b | VOr a b => vexp_ok a && vexp_ok b
  | _ => true
  end.

(* hints the model speaks about: class identifiers from the class table, scalar literal members,
   IsEqual payloads that equal themselves, signs whose origin is a class of the table (a sign the
   sign tables do not list has origin object, and passes) *)
Fixpoint door_ok (h : hint) : bool :=
  match h with
  | HCls c | HShallow c => Nat.ltb c class_count
  | HUnion hs | HTuple hs =>
      (fix all (l : list hint) : bool := match l with [] => true | x :: l' => door_ok x && all l' end) hs
  | HCont s ch => issub (sign_origin s) (sign_origin s) && door_ok ch
  | HCounter ch => door_ok ch
  | HMap m k v => issub (map_origin m) (map_origin m) && door_ok k && door_ok v
  | HAnnot mh vs => door_ok mh && forallb vexp_ok vs
  | HType cs => forallb (fun c => Nat.ltb c class_count) cs
  | HLiteral vs => forallb lit_ok vs
  | HAny => true
  end.

Lemma py_eq_refl_lit v : lit_ok v = true -> py_eq v v = true.
Proof.
  destruct v; cbn; try discriminate; intros _; try apply Z.eqb_refl; try apply String.eqb_refl; reflexivity.
Qed.

Lemma nats_eq_refl cs : nats_eq cs cs = true.
Proof. unfold nats_eq. induction cs as [|c cs IH]; [reflexivity|]. now rewrite Nat.eqb_refl. Qed.

Lemma vexp_same_refl v : vexp_same v v = true.
Proof.
  induction v; cbn [vexp_same]; rewrite ?IHv, ?IHv1, ?IHv2; try reflexivity.
  - apply Nat.eqb_refl.
  - now rewrite String.eqb_refl.
  - apply val_same_refl.
  - apply nats_eq_refl.
  - apply nats_eq_refl.
Qed.

Lemma vexp_memo_eq_refl v : vexp_memo v = true -> vexp_ok v = true -> vexp_memo_eq v v = true.
Proof.
  induction v; cbn [vexp_memo vexp_ok vexp_memo_eq]; try discriminate; intros Hm Hk.
  - rewrite String.eqb_refl. now apply IHv.
  - exact Hk.
  - apply nats_eq_refl.
  - apply nats_eq_refl.
Qed.

Lemma vexp_eqb_refl v : vexp_ok v = true -> vexp_eqb v v = true.
Proof.
  intros Hk. unfold vexp_eqb. destruct (vexp_memo v) eqn:E; cbn [andb].
  - now apply vexp_memo_eq_refl.
  - apply vexp_same_refl.
Qed.

Lemma vexps_eqb_refl vs : forallb vexp_ok vs = true -> vexps_eqb vs vs = true.
Proof.
  induction vs as [|v vs IH]; [reflexivity|]. cbn. intros H. apply andb_true_iff in H as [H1 H2].
  now rewrite (vexp_eqb_refl v H1), IH.
Qed.

Lemma same_sign_refl h : match kind_of h with KSub | KTupleVar => same_sign h h = true | _ => True end.
Proof.
  destruct h; cbn [kind_of same_sign]; try exact I; try apply Nat.eqb_refl; try reflexivity.
  destruct (Nat.eqb s s_Tuple); apply Nat.eqb_refl.
Qed.

Lemma door_ok_children h x : door_ok h = true -> In x (children h) -> door_ok x = true.
Proof.
  destruct h; cbn [door_ok children In]; try tauto; try (intros H; revert x; exact (proj1 (forallb_forall _ _) H)).
  - intros [_ H]%andb_true_iff [<-|[]]. exact H.
  - intros [[_ Hk]%andb_true_iff Hv]%andb_true_iff [<-|[<-|[]]]; assumption.
  - intros H [<-|[]]. exact H.
  - (* type[...]: the class, or the union of the classes *)
    intros H. assert (U : door_ok (HUnion (map HCls cs)) = true).
    { apply forallb_forall. intros ? (c & <- & Hc)%in_map_iff. exact (proj1 (forallb_forall _ _) H c Hc). }
    destruct cs as [|c [|d cs']]; intros [<-|[]]; try exact U. cbn [forallb] in H. now rewrite andb_true_r in H.
  - intros [H _]%andb_true_iff [<-|[]]. exact H.
Qed.

Lemma door_ok_origin h : door_ok h = true -> issub (origin h) (origin h) = true.
Proof.
  induction h; cbn [door_ok origin]; try reflexivity.
  - intros H%Nat.ltb_lt. now apply issub_refl.
  - intros H%Nat.ltb_lt. now apply issub_refl.
  - now intros [H _]%andb_true_iff.
  - now intros [[H _]%andb_true_iff _]%andb_true_iff.
  - intros [H _]%andb_true_iff. now apply IHh.
Qed.

Lemma and3_same_not_RF a : a <> RF -> and3 a (fun _ => a) <> RF.
Proof. destruct a; cbn; congruence. Qed.

Lemma literal_self vs : forallb lit_ok vs = true -> forallb (fun v => existsb (fun w => py_eq v w) vs) vs = true.
Proof.
  rewrite !forallb_forall. intros H v Hv. apply existsb_exists. exists v. split; [exact Hv|]. now apply py_eq_refl_lit, H.
Qed.

(* One level of [sub] and of [eqh] on (h, h), the level below being any [sb], [eh] that do not answer
   False on the children of h. *)
Section ReflStep.
  Variables (sb eh : hint -> hint -> r3) (h : hint).
  Hypothesis Hok : door_ok h = true.

  Lemma branch_refl : (forall hs, h <> HUnion hs) -> (forall x, In x (children h) -> sb x x <> RF) -> branch sb h h <> RF.
  Proof.
    intros Hk IH. pose proof (door_ok_origin h Hok) as Ho.
    assert (G : wrapper_instance (kind_of h) (kind_of h) = true -> branch_sub sb h h <> RF).
    { intros Hw. unfold branch_sub. rewrite Ho, Hw, Nat.eqb_refl. cbn [negb].
      destruct (args_ignorable h); [discriminate|]. rewrite all3_2_diag. now apply all3_not_RF. }
    destruct h; try (apply G; reflexivity); cbn [branch origin] in *.
    - unfold branch_sub. cbn [origin]. rewrite Ho. discriminate.
    - (* a class *) rewrite Ho. discriminate.
    - now destruct (Hk hs).
    - (* a one-argument hint *) apply G. cbn [kind_of]. now destruct (Nat.eqb s s_Tuple).
    - (* a fixed tuple *) cbn [args_ignorable kind_of]. rewrite Nat.eqb_refl, all3_2_diag. now apply all3_not_RF.
    - (* a literal *) rewrite (literal_self vs Hok). discriminate.
    - (* Annotated *)
      cbn [door_ok] in Hok. apply andb_true_iff in Hok as [_ Hv]. rewrite Nat.eqb_refl, (vexps_eqb_refl vs Hv).
      specialize (IH h0 (or_introl eq_refl)). now destruct (sb h0 h0).
  Qed.

  Lemma sub_step_refl : (forall x, In x (children h) -> sb x x <> RF) -> sub_step sb h h <> RF.
  Proof.
    intros IH.
    assert (B : (forall hs, h <> HUnion hs) -> base sb h h <> RF).
    { intros Hk. unfold base. rewrite (branches_single h Hk), any3_single. destruct (is_any h); [discriminate|]. now apply branch_refl. }
    unfold sub_step. destruct (is_any h || is_any h); [discriminate|].
    destruct h; try (apply B; discriminate).
    - (* a union: each member is below itself *)
      apply all3_not_RF. intros this Hin. apply (any3_not_RF _ _ this Hin). now apply IH.
    - (* a literal *) rewrite (literal_self vs Hok). discriminate.
  Qed.

  Lemma eqh_step_refl : sb h h <> RF -> (forall x, In x (children h) -> eh x x <> RF) -> eqh_step sb eh h h <> RF.
  Proof.
    intros Hs IH. pose proof (and3_same_not_RF _ Hs) as G. pose proof (same_sign_refl h) as SS.
    unfold eqh_step. destruct (kind_of h); try exact G.
    2,3: (* the two subscripted kinds *)
      destruct (_ && _); [rewrite Nat.eqb_refl; discriminate|]; rewrite SS, Nat.eqb_refl, all3_2_diag; now apply all3_not_RF.
    destruct h; try exact G. cbn [door_ok] in Hok. apply andb_true_iff in Hok as [_ Hv].
    rewrite (vexps_eqb_refl vs Hv). specialize (IH h0 (or_introl eq_refl)). now destruct (eh h0 h0).
  Qed.
End ReflStep.

(* by induction on the fuel: the level below is the model at fuel n *)
Theorem refl_never_false n : forall h, door_ok h = true -> sub n h h <> RF /\ eqh n h h <> RF.
Proof.
  induction n as [|n IH]; intros h Hok; [split; discriminate|].
  assert (Hch : forall x, In x (children h) -> sub n x x <> RF /\ eqh n x x <> RF).
  { intros x Hx. exact (IH x (door_ok_children h x Hok Hx)). }
  rewrite sub_S, eqh_S. split.
  - apply sub_step_refl; [exact Hok|]. intros x Hx. now apply Hch.
  - apply eqh_step_refl; [exact Hok|now apply IH|]. intros x Hx. now apply Hch.
Qed.

(* classes and unions of classes *)
Definition flat (cs : list nat) : hint := match cs with [c] => HCls c | _ => HUnion (map HCls cs) end.

Definition sub_flat (xs ys : list nat) : bool := forallb (fun x => existsb (issub x) ys) xs.

(* all(...) and any(...) over tests that only answer True or False, here on the classes of a flat hint *)
Lemma all3_bool {A B} (g : A -> B) (f : B -> r3) (t : A -> bool) l :
  (forall x, f (g x) = r3_of (t x)) -> all3 f (map g l) = r3_of (forallb t l).
Proof. intros H. induction l as [|a l IH]; [reflexivity|]. cbn. rewrite H, IH. now destruct (t a). Qed.

Lemma any3_bool {A B} (g : A -> B) (f : B -> r3) (t : A -> bool) l :
  (forall x, f (g x) = r3_of (t x)) -> any3 f (map g l) = r3_of (existsb t l).
Proof. intros H. induction l as [|a l IH]; [reflexivity|]. cbn. rewrite H, IH. now destruct (t a). Qed.

Lemma branches_flat ds : branches (flat ds) = map HCls ds /\ is_any (flat ds) = false.
Proof. now destruct ds as [|d [|d' ds]]. Qed.

Lemma sub_cls_flat n c ds : sub (S n) (HCls c) (flat ds) = r3_of (existsb (issub c) ds).
Proof.
  rewrite sub_S. unfold sub_step, base. destruct (branches_flat ds) as [-> ->]. apply any3_bool. reflexivity.
Qed.

Lemma sub_cls_cls n c d : sub (S n) (HCls c) (HCls d) = r3_of (issub c d).
Proof. change (HCls d) with (flat [d]). rewrite sub_cls_flat. cbn [existsb]. now rewrite orb_false_r. Qed.

(* ... and as a member of a union on the left: the members of the right-hand union are tried one by one *)
Lemma sub_member_flat n c ds : any3 (sub (S n) (HCls c)) (branches (flat ds)) = r3_of (existsb (issub c) ds).
Proof. destruct (branches_flat ds) as [-> _]. apply any3_bool. intros d. apply sub_cls_cls. Qed.

Lemma sub_flat_flat n xs ys : sub (S (S n)) (flat xs) (flat ys) = r3_of (sub_flat xs ys).
Proof.
  unfold sub_flat.
  assert (U : sub (S (S n)) (HUnion (map HCls xs)) (flat ys) = r3_of (forallb (fun x => existsb (issub x) ys) xs)).
  { rewrite sub_S. unfold sub_step. destruct (branches_flat ys) as [_ ->]. cbn [is_any orb].
    apply all3_bool. intros c. rewrite any3_branches. apply sub_member_flat. }
  destruct xs as [|x [|x' xs]]; try exact U.
  unfold flat at 1. rewrite sub_cls_flat. cbn [forallb]. now rewrite andb_true_r.
Qed.

Lemma r3_of_RT b : r3_of b = RT -> b = true.
Proof. now destruct b. Qed.

(* transitive wherever [issub] is: away from Hashable *)
Lemma sub_flat_trans xs ys zs : ~ In c_Hashable zs ->
  sub_flat xs ys = true -> sub_flat ys zs = true -> sub_flat xs zs = true.
Proof.
  unfold sub_flat. rewrite !forallb_forall. intros Hh E1 E2 x Hx.
  apply E1, existsb_exists in Hx as (y & Hy & Hxy). apply E2, existsb_exists in Hy as (z & Hz & Hyz).
  apply existsb_exists. exists z. split; [exact Hz|]. apply (issub_trans x y z); auto. intros ->. now apply Hh.
Qed.

(* classes other than object and Hashable, non-empty unions of non-unions, one-argument containers,
   mappings and fixed tuples of such: no Any, no ignorable child.  Hashable is out because issubclass is not
   transitive through it (ClassFacts.issub_trans): is_subhint(list, object) and is_subhint(object, Hashable)
   are True, and a list is not Hashable *)
Fixpoint simple (h : hint) : bool :=
  match h with
  | HCls c => negb (Nat.eqb c c_object) && negb (Nat.eqb c c_Hashable)
  | HUnion hs =>
      match hs with [] => false | _ => true end &&
      (fix all (l : list hint) : bool :=
         match l with [] => true | x :: l' => simple x && negb (match x with HUnion _ => true | _ => false end) && all l' end) hs
  | HCont s ch => simple ch && negb (Nat.eqb (sign_origin s) c_Hashable)
  | HMap m k v => simple k && simple v && negb (Nat.eqb (map_origin m) c_Hashable)
  | HTuple hs =>
      (fix all (l : list hint) : bool := match l with [] => true | x :: l' => simple x && all l' end) hs
  | _ => false
  end.

Lemma simple_children h x : simple h = true -> In x (children h) -> simple x = true.
Proof.
  destruct h; cbn [simple children In]; try discriminate; try tauto.
  - intros [_ H]%andb_true_iff Hin. now apply (proj1 (forallb_forall _ _) H) in Hin as [Hx _]%andb_true_iff.
  - intros [H _]%andb_true_iff [<-|[]]. exact H.
  - intros [[Hk Hv]%andb_true_iff _]%andb_true_iff [<-|[<-|[]]]; assumption.
  - intros H. exact (proj1 (forallb_forall _ _) H x).
Qed.

Lemma simple_not_ignorable h : simple h = true -> ignorable h = false.
Proof.
  induction h using hint_ind2; intros Hs; try discriminate; try reflexivity.
  - cbn [simple ignorable] in *. apply andb_true_iff in Hs as [Hs _]. now apply negb_true_iff in Hs.
  - rewrite ignorable_union. apply existsb_false. rewrite Forall_forall in H.
    intros x Hx. exact (H x Hx (simple_children _ x Hs Hx)).
Qed.

Lemma simple_not_any h : simple h = true -> is_any h = false.
Proof. destruct h; cbn; try reflexivity. discriminate. Qed.

Lemma simple_origin h : simple h = true -> origin h <> c_Hashable.
Proof.
  destruct h; cbn [simple origin]; intros Hs; try discriminate;
    apply andb_true_iff in Hs as [_ Hs]; apply negb_true_iff in Hs; now apply Nat.eqb_neq.
Qed.

Lemma isinst_trans x c d : d <> c_Hashable -> isinst x [c] = true -> issub c d = true -> isinst x [d] = true.
Proof. rewrite (isinst_single x d). apply isinst_sub. Qed.

(* a simple hint whose arguments are all ignorable is a class: the others have an argument, and it is simple *)
Lemma simple_args_ignorable br : simple br = true -> args_ignorable br = true -> exists d, br = HCls d.
Proof.
  intros Hs Ha.
  assert (N : forall x l, children br = x :: l -> ignorable x = false).
  { intros x l E. apply simple_not_ignorable, (simple_children br x Hs). rewrite E. now left. }
  destruct br; try discriminate; [now exists c|..]; exfalso; cbn [args_ignorable children forallb] in *.
  - destruct hs as [|a l]; [discriminate|]. cbn [forallb] in Ha. now rewrite (N a l eq_refl) in Ha.
  - now rewrite (N br [] eq_refl) in Ha.
  - now rewrite (N br1 [br2] eq_refl) in Ha.
Qed.

(* what a True answer of the generic branch test says, when the arguments of the branch count *)
Lemma branch_sub_RT sb a br : branch_sub sb a br = RT -> args_ignorable br = false ->
  issub (origin a) (origin br) = true /\ wrapper_instance (kind_of a) (kind_of br) = true
  /\ Nat.eqb (List.length (children a)) (List.length (children br)) = true
  /\ all3_2 sb (children a) (children br) = RT.
Proof.
  unfold branch_sub. intros H E. rewrite E in H. destruct (issub _ _); [|discriminate].
  destruct (wrapper_instance _ _); [|discriminate]. destruct (Nat.eqb _ _); [auto|discriminate].
Qed.

Section Soundness.
  Variable pb : nat -> pyval -> bool.

  (* [b] accepts every object that [a] accepts, as far as both are simple *)
  Definition below (a b : hint) : Prop :=
    simple a = true -> simple b = true -> forall x, sat pb a x = true -> sat pb b x = true.

  (* a union on the right: one branch suffices; on the left: every member *)
  Lemma below_branch a b br : In br (branches b) -> below a br -> below a b.
  Proof.
    intros Hin H Ha Hb x Hsat. destruct b; cbn [branches] in Hin; try (destruct Hin as [<-|[]]; now apply H).
    rewrite sat_union. apply existsb_exists. exists br. split; [exact Hin|].
    exact (H Ha (simple_children _ br Hb Hin) x Hsat).
  Qed.

  Lemma below_union hs b : (forall this, In this hs -> below this b) -> below (HUnion hs) b.
  Proof.
    intros H Ha Hb x. rewrite sat_union. intros (this & Hin & Hthis)%existsb_exists.
    exact (H this Hin (simple_children _ this Ha Hin) Hb x Hthis).
  Qed.

  (* what satisfying a simple hint other than a union says of the class of the object *)
  Lemma sat_origin a x : simple a = true -> (forall hs, a <> HUnion hs) -> sat pb a x = true -> isinst x [origin a] = true.
  Proof.
    destruct a; cbn [simple]; try discriminate; intros _ Hk; [|now destruct (Hk hs)|..]; cbn [sat origin]; auto;
      now intros [H _]%andb_true_iff.
  Qed.

  (* The rules by which [below] is derived: a class above the origin, and argument by argument. *)
  Lemma below_class a d : (forall hs, a <> HUnion hs) -> issub (origin a) d = true -> below a (HCls d).
  Proof.
    intros Hk Ho Ha Hd x Hsat. exact (isinst_trans x (origin a) d (simple_origin (HCls d) Hd) (sat_origin a x Ha Hk Hsat) Ho).
  Qed.

  Lemma below_cont s t ch ch' :
    issub (sign_origin s) (sign_origin t) = true -> below ch ch' -> below (HCont s ch) (HCont t ch').
  Proof.
    intros Ho IH Ha Hb x. pose proof (simple_origin _ Hb) as Hh. cbn [simple sat origin] in *.
    apply andb_true_iff in Ha as [Ha _], Hb as [Hb _]. intros [Hi Hitems]%andb_true_iff.
    rewrite (isinst_trans x _ _ Hh Hi Ho). cbn [andb]. destruct (coll_items x); [|reflexivity].
    rewrite forallb_forall in *. intros y Hy. apply IH; auto.
  Qed.

  Lemma below_map m m' k k' v v' :
    issub (map_origin m) (map_origin m') = true -> below k k' -> below v v' -> below (HMap m k v) (HMap m' k' v').
  Proof.
    intros Ho IHk IHv Ha Hb x. pose proof (simple_origin _ Hb) as Hh. cbn [simple sat origin] in *.
    apply andb_true_iff in Ha as [[Hak Hav]%andb_true_iff _], Hb as [[Hbk Hbv]%andb_true_iff _].
    intros [Hi Hitems]%andb_true_iff. rewrite (isinst_trans x _ _ Hh Hi Ho). cbn [andb]. destruct x; try reflexivity.
    rewrite forallb_forall in *. intros kv Hkv. apply Hitems in Hkv as [H1 H2]%andb_true_iff.
    now rewrite (IHk Hak Hbk _ H1), (IHv Hav Hbv _ H2).
  Qed.

  Lemma below_tuple hs bs : Forall2 below hs bs -> below (HTuple hs) (HTuple bs).
  Proof.
    intros F Ha Hb x. rewrite !sat_tuple_unfold. intros [-> Hall]%andb_true_iff. cbn [andb].
    destruct (items_of x) as [l|]; [|discriminate]. revert l Hall.
    induction F as [|h b hs bs Hhb _ IH]; intros [|y l]; cbn [sat_all2]; try easy.
    cbn [simple] in Ha, Hb. apply andb_true_iff in Ha as [Ha1 Ha2], Hb as [Hb1 Hb2].
    intros [H1 H2]%andb_true_iff. rewrite (Hhb Ha1 Hb1 y H1). now apply IH.
  Qed.

  Lemma below_tuple_var hs ch : Forall (fun h => below h ch) hs -> below (HTuple hs) (HCont s_Tuple ch).
  Proof.
    intros F Ha Hb x. rewrite sat_tuple_unfold. intros [Hi Hall]%andb_true_iff. cbn [sat simple] in *.
    change (sign_origin s_Tuple) with c_tuple. rewrite Hi. cbn [andb]. apply andb_true_iff in Hb as [Hb _].
    unfold coll_items. destruct (items_of x) as [l|]; [|discriminate]. destruct (issub _ c_Collection); [|reflexivity].
    revert l Hall. induction F as [|h hs Hh _ IH]; intros [|y l]; cbn [sat_all2 forallb]; try easy.
    apply andb_true_iff in Ha as [Ha1 Ha2]. intros [H1 H2]%andb_true_iff. rewrite (Hh Ha1 Hb y H1). now apply IH.
  Qed.

  (* One level of [sub] on simple hints, the level below being any sound [sb]. *)
  Section Step.
    Variable sb : hint -> hint -> r3.
    Hypothesis IH : forall a b, sb a b = RT -> below a b.

    Lemma branch_sound a br : (forall hs, a <> HUnion hs) -> simple a = true -> simple br = true ->
      branch sb a br = RT -> below a br.
    Proof.
      intros Hk Ha Hb Hbr. destruct (args_ignorable br) eqn:Eig.
      { (* br is a class, above the origin of a *)
        destruct (simple_args_ignorable br Hb Eig) as (d & ->). apply below_class; [exact Hk|].
        destruct a; try discriminate; cbn [branch] in Hbr; unfold branch_sub in Hbr; cbn [args_ignorable origin andb] in *;
          now destruct (issub _ d). }
      destruct a as [| c | c | hs | s ch | m k v | k | hs | vs | cs | mh vs]; try discriminate; try (now destruct (Hk hs));
        cbn [branch] in Hbr; rewrite ?Eig in Hbr; try discriminate.
      - (* a one-argument container *)
        destruct (branch_sub_RT _ _ _ Hbr Eig) as (Eo & Ew & Elen & Hch).
        destruct br as [| d | d | bs | t ch' | m' k' v' | k' | bs | ws | ds | mh' ws]; try discriminate;
          try (cbn [kind_of] in Ew; destruct (Nat.eqb s s_Tuple); discriminate).
        cbn [children all3_2] in Hch. destruct (sb ch ch') eqn:Ech; try discriminate. apply below_cont; auto.
      - (* a mapping *)
        destruct (branch_sub_RT _ _ _ Hbr Eig) as (Eo & Ew & Elen & Hch).
        destruct br as [| d | d | bs | t ch' | m' k' v' | k' | bs | ws | ds | mh' ws]; try discriminate.
        cbn [children all3_2] in Hch. destruct (sb k k') eqn:Ek; try discriminate. destruct (sb v v') eqn:Ev; try discriminate.
        apply below_map; auto.
      - (* a fixed tuple *)
        destruct br as [| d | d | bs | t ch' | m' k' v' | k' | bs | ws | ds | mh' ws]; try discriminate; cbn [kind_of] in Hbr.
        + (* against a variadic tuple *)
          destruct (Nat.eqb_spec t s_Tuple) as [->|]; [|discriminate].
          apply below_tuple_var, Forall_forall. intros h Hh. exact (IH _ _ (all3_RT _ _ Hbr h Hh)).
        + (* against a fixed tuple *)
          destruct (Nat.eqb_spec (List.length hs) (List.length bs)) as [Elen|]; [|discriminate].
          exact (below_tuple _ _ (all3_2_RT _ _ _ IH _ Elen Hbr)).
    Qed.

    Lemma sub_step_sound a b : sub_step sb a b = RT -> below a b.
    Proof.
      intros Hsub Ha Hb. unfold sub_step in Hsub.
      rewrite (simple_not_any a Ha), (simple_not_any b Hb) in Hsub. cbn [orb] in Hsub.
      assert (B : (forall hs, a <> HUnion hs) -> base sb a b = RT -> below a b).
      { intros Hk (br & Hin & Hbr)%any3_RT. apply (below_branch a b br Hin). intros _ Hsb.
        rewrite (simple_not_any br Hsb) in Hbr. exact (branch_sound a br Hk Ha Hsb Hbr Ha Hsb). }
      revert Ha Hb. destruct a as [| c | c | hs | s ch | m k v | k | hs | vs | cs | mh vs]; try discriminate;
        try (apply B; [discriminate|exact Hsub]).
      (* a union: each member is below the branch that answered True for it *)
      apply below_union. intros this Hin. pose proof (all3_RT _ _ Hsub this Hin) as Hone. cbv beta in Hone.
      rewrite any3_branches in Hone. apply any3_RT in Hone as (that & Hin' & Hthat).
      exact (below_branch this b that Hin' (IH this that Hthat)).
    Qed.
  End Step.

  Theorem sound_simple n : forall a b, sub n a b = RT -> below a b.
  Proof.
    induction n as [|n IH]; intros a b Hsub; [discriminate|].
    rewrite sub_S in Hsub. exact (sub_step_sound (sub n) IH a b Hsub).
  Qed.
End Soundness.
