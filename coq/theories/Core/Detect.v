(* Shared core: what the detection theorems of C02 need beside the equations of [chk]. *)
From Coq Require Import List ZArith Bool Lia.
From BT Require Import Gen.ClassTable Gen.SignSets.
From BT Require Import Core.PyVal Core.Hint Core.Check Core.CheckFacts.
Import ListNotations.

(* the class (or classes) an object must be an instance of before anything else is looked at *)
Definition top_classes (h : hint) : option (list nat) :=
  match h with
  | HCls c | HShallow c => Some [c]
  | HCont s _ => Some [sign_origin s]
  | HMap s _ _ => Some [map_origin s]
  | HCounter _ => Some [counter_origin]
  | HTuple _ => Some [c_tuple]
  | HType _ => Some [c_type]
  | HLiteral vs => Some (map type_of vs)
  | HAny | HUnion _ | HAnnot _ _ => None
  end.

Section Detect.
  Variable cf : gconf.
  Variable pb : nat -> pyval -> bool.

  Lemma tuple_chk_position x r hs : forall n k h',
    nth_error hs k = Some h' -> ignorable h' = false ->
    chk cf r pb h' (nth (n + k) (items x) VNone) = false -> tuple_chk cf r pb x hs n = false.
  Proof.
    induction hs as [|h hs IH]; intros n k h' Hn Hig Hc; [destruct k; discriminate|].
    cbn [tuple_chk]. destruct k as [|k].
    - cbn in Hn. inversion Hn; subst. rewrite Hig. rewrite Nat.add_0_r in Hc. now rewrite Hc.
    - cbn in Hn. rewrite (IH (S n) k h' Hn Hig); [now rewrite andb_false_r|].
      now rewrite Nat.add_succ_comm.
  Qed.

  (* sequences under random sampling: the draw equal to the index of an item inspects exactly
     that item, so every index below 2^32 is reached by a 32-bit draw *)
  Lemma sample_at_index x i :
    is_random cf = true -> i < List.length (items x) ->
    sample cf (Z.of_nat i) x = nth i (items x) VNone.
  Proof.
    intros Hr Hi. unfold sample. rewrite Hr. destruct (items x) as [|a l] eqn:El; [cbn in Hi; lia|].
    rewrite Z.mod_small by lia. now rewrite Nat2Z.id.
  Qed.

  (* ... and no further: with 2^32 or more items a 32-bit draw is its own index, so items at
     index 2^32 and beyond are never inspected (finding F18; unreachable for real lists) *)
  Theorem draw_is_index_beyond_32bit x r :
    (2 ^ 32 <= Z.of_nat (List.length (items x)))%Z -> (0 <= r < 2 ^ 32)%Z ->
    (r mod Z.of_nat (List.length (items x)) = r)%Z.
  Proof. intros H1 H2. apply Z.mod_small. lia. Qed.
End Detect.
