(* C18 proofs: the lazily applied, guarded override reduction equals one simultaneous rewriting
   pass whenever replacements are stable; the numeric tower is stable. *)
From Coq Require Import List ZArith Bool.
From BT Require Import Gen.ClassTable Core.PyVal Core.Hint Core.Induct Core.Override.
Import ListNotations.

(* the list comparisons inside [val_same] and [hint_eqb] *)
Lemma all2b_eq {A} (eqb : A -> A -> bool) l : Forall (fun x => forall y, eqb x y = true -> x = y) l ->
  forall m, (fix go (l m : list A) : bool :=
               match l, m with [], [] => true | x :: l', y :: m' => eqb x y && go l' m' | _, _ => false end) l m = true ->
  l = m.
Proof.
  induction 1 as [|x l Hx Hl IH]; intros [|y m] E; try discriminate; [reflexivity|].
  apply andb_true_iff in E as [E1 E2]. f_equal; [now apply Hx|now apply IH].
Qed.

Lemma val_same_eq a : forall w, val_same a w = true -> a = w.
Proof.
  induction a using pyval_ind2; intros w E; destruct w; cbn [val_same] in E; try discriminate; try reflexivity.
  - apply Bool.eqb_prop in E. now subst.
  - apply Z.eqb_eq in E. now subst.
  - apply Z.eqb_eq in E. now subst.
  - apply String.eqb_eq in E. now subst.
  - apply String.eqb_eq in E. now subst.
  - apply andb_true_iff in E as [Ec E]. apply Nat.eqb_eq in Ec. subst. f_equal. exact (all2b_eq _ _ H _ E).
  - apply andb_true_iff in E as [Ec E]. apply Nat.eqb_eq in Ec. subst. f_equal.
    revert kvs0 E. induction H as [|[k x] l [Hk Hx] Hl IH]; intros [|[k' y] m] E; try discriminate; [reflexivity|].
    apply andb_true_iff in E as [E1 E2]. apply andb_true_iff in E1 as [E0 E1]. cbn in Hk, Hx.
    f_equal; [f_equal; [now apply Hk|now apply Hx]|now apply IH].
  - apply Nat.eqb_eq in E. now subst.
  - apply andb_true_iff in E as [Ec E]. apply Nat.eqb_eq in Ec. subst. f_equal.
    revert attrs0 E. induction H as [|[k x] l Hx Hl IH]; intros [|[k' y] m] E; try discriminate; [reflexivity|].
    apply andb_true_iff in E as [E1 E2]. apply andb_true_iff in E1 as [E0 E1]. cbn in Hx.
    apply String.eqb_eq in E0. subst. f_equal; [f_equal; now apply Hx|now apply IH].
Qed.

Lemma hint_eqb_eq a : forall w, hint_eqb a w = true -> a = w.
Proof.
  induction a using hint_ind2; intros w E; destruct w; cbn [hint_eqb] in E; try discriminate; try reflexivity.
  - apply Nat.eqb_eq in E. now subst.
  - apply Nat.eqb_eq in E. now subst.
  - f_equal. exact (all2b_eq _ _ H _ E).
  - apply andb_true_iff in E as [E1 E2]. apply Nat.eqb_eq in E1. subst. f_equal. now apply IHa.
  - apply andb_true_iff in E as [E1 E3]. apply andb_true_iff in E1 as [E1 E2]. apply Nat.eqb_eq in E1. subst.
    f_equal; [now apply IHa1|now apply IHa2].
  - f_equal. now apply IHa.
  - f_equal. exact (all2b_eq _ _ H _ E).
  - f_equal. exact (all2b_eq _ _ (Forall_all _ val_same_eq vs) _ E).
  - f_equal. exact (all2b_eq _ _ (Forall_all _ (fun x y => proj1 (Nat.eqb_eq x y)) cs) _ E).
Qed.

Lemma ov_get_in ov h b : ov_get ov h = Some b -> In (h, b) ov.
Proof.
  induction ov as [|[k v] ov IH]; cbn; [discriminate|].
  destruct (hint_eqb k h) eqn:E.
  - intros H. inversion H; subst. apply hint_eqb_eq in E. subst. now left.
  - intros H. right. now apply IH.
Qed.

Lemma expand_unfold ov n g h :
  expand ov (S n) g h =
  match (match ov_get ov h with
         | Some b => if guarded g h then None else Some (expand ov n (h :: g) b)
         | None => None
         end) with
  | Some b' => b'
  | None =>
      match h with
      | HUnion hs => mk_union (map (expand ov (S n) g) hs)
      | HCont s ch => HCont s (expand ov (S n) g ch)
      | HMap s k v => HMap s (expand ov (S n) g k) (expand ov (S n) g v)
      | HCounter k => HCounter (expand ov (S n) g k)
      | HTuple hs => HTuple (map (expand ov (S n) g) hs)
      | HAnnot mh vs => HAnnot (expand ov (S n) g mh) vs
      | HType cs =>
          HType (flat_map (fun c =>
                   match ov_get ov (HCls c) with
                   | Some b =>
                       if guarded g (HCls c) then [c]
                       else match classes_of (expand ov n (HCls c :: g) b) with
                            | Some l => l
                            | None => [c]
                            end
                   | None => [c]
                   end) cs)
      | _ => h
      end
  end.
Proof. destruct h; reflexivity. Qed.

Theorem effective_is_subst1 ov h : stable ov -> effective ov h = subst1 ov h.
Proof.
  intros Hst. unfold effective, fuel.
  induction h using hint_ind2; rewrite expand_unfold; cbn [subst1 guarded existsb];
    try (match goal with |- context [ov_get ov ?x] => destruct (ov_get ov x) as [b|] eqn:E end;
         [apply ov_get_in in E; now apply Hst|]); try reflexivity.
  - f_equal. now apply map_ext_Forall.
  - now rewrite IHh.
  - now rewrite IHh1, IHh2.
  - now rewrite IHh.
  - f_equal. now apply map_ext_Forall.
  - f_equal. apply flat_map_ext. intros c. destruct (ov_get ov (HCls c)) as [b|] eqn:Ec; [|reflexivity].
    apply ov_get_in in Ec. now rewrite (Hst _ _ Ec).
  - now rewrite IHh.
Qed.

Lemma tower_stable : stable tower_ov.
Proof.
  intros k b [H|[H|[]]]; inversion H; subst; reflexivity.
Qed.

(* chained replacements: one replacement mentioning another key is rewritten again by the
   code, unlike one simultaneous pass *)
Definition chained_ov : overrides :=
  [ (HCls c_float, HUnion [HCls c_float; HCls c_int]); (HCls c_int, HUnion [HCls c_int; HCls c_str]) ].
