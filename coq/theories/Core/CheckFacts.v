(* Shared core: equations for [sat], [chk], [ignorable] and [gen] at the hints whose case is a local
   fixpoint or a case split on the sign family, and the item of a container the check looks at. *)
From Coq Require Import List ZArith Bool.
From BT Require Import Gen.ClassTable Gen.SignSets Gen.Templates Core.PyVal Core.Expr Core.Hint Core.Check Core.ClassFacts Core.Cause.
Import ListNotations.

Lemma existsb_false {A} (f : A -> bool) l : existsb f l = false <-> forall x, In x l -> f x = false.
Proof.
  induction l as [|y l IH]; cbn; [tauto|]. rewrite orb_false_iff, IH. split.
  - intros [Hy Hl] x [<-|Hx]; auto.
  - auto.
Qed.

Lemma existsb_negb {A} (f : A -> bool) l : existsb (fun x => negb (f x)) l = negb (forallb f l).
Proof. induction l as [|a l IH]; [reflexivity|]. cbn. rewrite IH. now destruct (f a). Qed.

(* the local [fix any] and [fix all] in the definitions over hints are [existsb] and [forallb] written out:
   equal by conversion *)
Lemma ignorable_union hs : ignorable (HUnion hs) = existsb ignorable hs.
Proof. reflexivity. Qed.

Lemma sat_union pb hs x : sat pb (HUnion hs) x = existsb (fun h => sat pb h x) hs.
Proof. reflexivity. Qed.

Lemma sat_union_cls pb cs x : sat pb (HUnion (map HCls cs)) x = isinst x cs.
Proof.
  rewrite sat_union. induction cs as [|c cs IH]; [reflexivity|].
  cbn [map existsb sat]. now rewrite IH, isinst_single.
Qed.

Definition sat_all2 (pb : nat -> pyval -> bool) :=
  fix all2 (hl : list hint) (ys : list pyval) : bool :=
    match hl, ys with
    | [], [] => true
    | h' :: hl', y :: ys' => sat pb h' y && all2 hl' ys'
    | _, _ => false
    end.

Lemma sat_tuple_unfold pb hs x :
  sat pb (HTuple hs) x = isinst x [c_tuple] && match items_of x with Some l => sat_all2 pb hs l | None => false end.
Proof. reflexivity. Qed.

Section Chk.
  Variable cf : gconf.
  Variable r : Z.
  Variable pb : nat -> pyval -> bool.

  Lemma chk_union hs y : chk cf r pb (HUnion hs) y = existsb (fun h => chk cf r pb h y) hs.
  Proof. reflexivity. Qed.

  Definition tuple_chk (y : pyval) :=
    fix go (l : list hint) (n : nat) : bool :=
      match l with
      | [] => true
      | h' :: l' => (if ignorable h' then true else chk cf r pb h' (nth n (items y) VNone)) && go l' (S n)
      end.

  Lemma chk_tuple_unfold hs y :
    chk cf r pb (HTuple hs) y =
    isinst y [c_tuple] && Nat.eqb (List.length (items y)) (List.length hs) && tuple_chk y hs 0.
  Proof. reflexivity. Qed.

  (* the one item of a container that is looked at: [cause_item], which Core/Cause.v defines
     for the explanation path, is also what the check itself samples *)
  Lemma cause_item_in fam y : items y <> [] -> In (cause_item cf r fam y) (items y).
  Proof.
    intros Hne. destruct fam; cbn [cause_item]; auto using sample_in, first_in.
    destruct (isinst y [quasi_sequence_abc]); auto using sample_in, first_in.
  Qed.

  Lemma wf_cause_item fam y : wf y = true -> items y <> [] -> wf (cause_item cf r fam y) = true.
  Proof. intros Hw Hne. exact (wf_items y _ Hw (cause_item_in fam y Hne)). Qed.

  Lemma chk_cont s ch fam y : ignorable ch = false -> sign_family s = Some fam ->
    chk cf r pb (HCont s ch) y =
    isinst y [sign_origin s] &&
    (match fam with FQuasi => negb (isinst y [c_Collection]) | _ => false end
     || len0 y || chk cf r pb ch (cause_item cf r fam y)).
  Proof. intros Hig Hf. cbn [chk]. rewrite Hig, Hf. now destruct fam. Qed.

  (* instances of a sequence or reiterable origin are collections; quasi-iterables say so themselves *)
  Lemma family_collection s fam y : sign_family s = Some fam -> isinst y [sign_origin s] = true ->
    match fam with FQuasi => negb (isinst y [c_Collection]) | _ => false end = false ->
    issub (type_of y) c_Collection = true.
  Proof.
    intros Hf Hi Hg. pose proof (family_origin s) as Ho. rewrite Hf in Ho.
    destruct fam.
    - apply collection_of_sequence. exact (isinst_sub y _ c_Sequence ltac:(discriminate) Hi Ho).
    - exact (isinst_sub y _ c_Collection ltac:(discriminate) Hi Ho).
    - apply negb_false_iff in Hg. now rewrite isinst_single in Hg.
  Qed.
End Chk.

(* the index of the pith variable a node works on, and the expression that binds it *)
Definition node_i (pith : expr) (idx : nat) : nat := if simple pith then idx else S idx.
Definition node_assign (pith : expr) (idx : nat) : expr :=
  if simple pith then pith else tpl_assign pith (Pith (S idx)).

(* [cbn [gen]] leaves these two let-bound conditionals of [gen] in the goal: name them *)
Ltac fold_node :=
  repeat match goal with
         | |- context [if simple ?pith then ?idx else S ?idx] =>
             change (if simple pith then idx else S idx) with (node_i pith idx)
         | |- context [if simple ?pith then ?pith else tpl_assign ?pith (Pith (S ?idx))] =>
             change (if simple pith then pith else tpl_assign pith (Pith (S idx))) with (node_assign pith idx)
         end.

Lemma join_cons2 op a b l : join op (a :: b :: l) = op a (join op (b :: l)).
Proof. reflexivity. Qed.

(* the local fixpoints of the tuple and union cases of [gen], under names *)
Section Gen.
  Variable cf : gconf.

  Definition tuple_kids (i : nat) (v : expr) :=
    fix go (l : list hint) (n : Z) : list expr :=
      match l with
      | [] => []
      | h' :: l' =>
          if ignorable h' then go l' (n + 1)%Z
          else gen cf h' (tpl_tuple_child n v) i :: go l' (n + 1)%Z
      end.

  Lemma gen_tuple_unfold h0 hs pith idx :
    gen cf (HTuple (h0 :: hs)) pith idx =
    join tpl_tuple_op (tpl_tuple_prefix (node_assign pith idx)
                       :: tpl_tuple_len (Z.of_nat (List.length (h0 :: hs))) (EVar (Pith (node_i pith idx)))
                       :: tuple_kids (node_i pith idx) (EVar (Pith (node_i pith idx))) (h0 :: hs) 0%Z).
  Proof. reflexivity. Qed.

  Definition union_nonpep (hs : list hint) : list nat :=
    dedup (flat_map (fun h' => match nonpep_class h' with Some c => [c] | None => [] end) hs).

  Definition union_peps (assign v : expr) (i : nat) (has_nonpep : bool) :=
    fix go (l : list hint) (is_first : bool) : list expr :=
      match l with
      | [] => []
      | h' :: l' =>
          match nonpep_class h' with
          | Some _ => go l' is_first
          | None => gen cf h' (if is_first && negb has_nonpep then assign else v) i :: go l' false
          end
      end.

  Lemma gen_union_unfold hs pith idx :
    gen cf (HUnion hs) pith idx =
    let nonpep := union_nonpep hs in
    let has_nonpep := match nonpep with [] => false | _ => true end in
    let peps := union_peps (node_assign pith idx) (EVar (Pith (node_i pith idx))) (node_i pith idx) has_nonpep hs true in
    let has_pep := match peps with [] => false | _ => true end in
    join tpl_union_op
      ((if has_nonpep then [tpl_union_nonpep nonpep (if has_pep then node_assign pith idx else pith)] else []) ++ peps).
  Proof. reflexivity. Qed.
End Gen.
