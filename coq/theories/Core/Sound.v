(* Shared core: the sampled check [chk] never rejects an object that satisfies the hint at full
   depth (C01), whatever the draw. *)
From Coq Require Import ZArith.
From BT Require Import Core.PyVal Core.Hint Core.Check Core.GenProofs Core.CauseProofs.

Section Sound.
  Variable cf : gconf.
  Variable r : Z.
  Variable pb : nat -> pyval -> bool.

  (* The explanation path of Core/Cause.v sits between the two: had the check rejected, it would
     find a cause (no_desync); but it finds none in an object that satisfies the hint
     (cause_genuine). *)
  Theorem chk_sound h y : hint_ok h = true -> wf y = true -> sat pb h y = true -> chk cf r pb h y = true.
  Proof.
    intros Hok Hw Hs. destruct (chk cf r pb h y) eqn:Hc; [reflexivity|].
    pose proof (no_desync cf false r pb h Hok y Hw Hc) as H.
    now rewrite (cause_genuine cf false r pb h Hok y Hw Hs) in H.
  Qed.

  Lemma ignorable_sat h : ignorable h = true -> forall y, sat pb h y = true -> True.
  Proof. trivial. Qed.

  Theorem check_sound h y :
    hint_ok h = true -> wf y = true -> sat pb h y = true -> check cf r pb h y = true.
  Proof. intros Hok Hw Hs. unfold check. destruct (ignorable h); [reflexivity|now apply chk_sound]. Qed.
End Sound.
