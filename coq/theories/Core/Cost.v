(* Shared core: how many items a check reads (C09).  A syntactic, path-sensitive cost analysis
   of check expressions, sound for every evaluation however it ends (any objects, any draw), and
   a bound on the cost of generated code that depends on the hint alone. *)
From Coq Require Import List ZArith Bool Lia.
From BT Require Import Gen.SignSets Gen.Templates.
From BT Require Import Core.PyVal Core.Expr Core.Hint Core.Induct Core.CheckFacts.
Import ListNotations.

(* operations that read an item out of a container *)
Definition is_read (t : top) : bool :=
  match t with TItem _ _ | TFirst _ | TFirstValue _ => true | _ => false end.

Definition reads (l : list top) : nat := List.length (filter is_read l).

Lemma reads_app a b : reads (a ++ b) = reads a + reads b.
Proof. unfold reads. now rewrite filter_app, app_length. Qed.

Lemma reads_log t s : reads (trace (log t s)) = reads (trace s) + (if is_read t then 1 else 0).
Proof. unfold log. cbn [trace]. rewrite reads_app. unfold reads at 2. cbn [filter]. destruct (is_read t); reflexivity. Qed.

(* (reads at most this many items when it evaluates to a truthy value, ... to a falsy value) *)
Fixpoint cost (e : expr) : nat * nat :=
  let K e := Nat.max (fst (cost e)) (snd (cost e)) in
  match e with
  | EVar _ | ERand | EInt _ | ELit _ | ETrue => (0, 0)
  | EIsInst e _ | EIsSub e _ | ELen e | ECallPred _ e | EAttrLet _ e _ => (K e, K e)
  | EIndex e i => (1 + K e + K i, 1 + K e + K i)
  | EMod a b | EEq a b | EIs a b => (K a + K b, K a + K b)
  | EFirst e | EFirstValue e => (1 + K e, 1 + K e)
  | ENot e => (snd (cost e), fst (cost e))
  | EAnd a b => (fst (cost a) + fst (cost b), Nat.max (snd (cost a)) (fst (cost a) + snd (cost b)))
  | EOr a b => (Nat.max (fst (cost a)) (snd (cost a) + fst (cost b)), snd (cost a) + snd (cost b))
  | EWalrus _ e => cost e
  | ELet _ e => (K e, 0)
  end.

Definition K (e : expr) : nat := Nat.max (fst (cost e)) (snd (cost e)).

(* what an evaluation that ended in [o] may have read *)
Definition pick (o : res pyval) (c : nat * nat) : nat :=
  match o with Ok v => if truthy v then fst c else snd c | Exc _ => Nat.max (fst c) (snd c) end.

Lemma pick_le o c : pick o c <= Nat.max (fst c) (snd c).
Proof. destruct o as [v|x]; cbn [pick]; [destruct (truthy v)|]; lia. Qed.

Lemma pick_flat o k : pick o (k, k) = k.
Proof. destruct o as [v|x]; cbn [pick fst snd]; [destruct (truthy v)|]; lia. Qed.

Section CostSound.
  Variable r : Z.
  Variable preds : nat -> pyval -> res pyval.

  (* [p] ran from [s] reading at most [n] items *)
  Definition within (s : st) (n : nat) (p : res pyval * st) : Prop :=
    reads (trace (snd p)) <= reads (trace s) + n.

  Definition sound (e : expr) : Prop := forall s, within s (pick (fst (eval r preds e s)) (cost e)) (eval r preds e s).

  Lemma sound_K e s : sound e -> within s (K e) (eval r preds e s).
  Proof. intros H. specialize (H s). pose proof (pick_le (fst (eval r preds e s)) (cost e)). unfold within, K in *. lia. Qed.

  (* a strict operator: the operand's reads, then the operator's own *)
  Lemma within_strict s e c m (F : pyval -> st -> res pyval * st) :
    sound e -> (forall v s1, within s1 c (F v s1)) -> K e + c <= m ->
    within s m (match eval r preds e s with (Ok v, s1) => F v s1 | (Exc x, s1) => (Exc x, s1) end).
  Proof.
    intros H%(sound_K e s) HF L. unfold within in *.
    destruct (eval r preds e s) as [[v|x] s1]; cbn [snd] in *; [specialize (HF v s1)|]; lia.
  Qed.

  Lemma within_log s t o : within s (if is_read t then 1 else 0) (o, log t s).
  Proof. unfold within. cbn [snd]. rewrite reads_log. lia. Qed.

  Lemma within_refl s o : within s 0 (o, s).
  Proof. unfold within. cbn [snd]. lia. Qed.

  Theorem cost_sound e : sound e.
  Proof.
    induction e; intros s; cbn [eval cost]; rewrite ?pick_flat.
    - destruct (env_get x (env s)); apply within_refl.
    - apply within_refl.
    - apply within_refl.
    - apply within_refl.
    - apply within_refl.
    - (* EIsInst *) apply (within_strict s e 0); [assumption| |unfold K; lia].
      intros v s1. apply (within_log s1 (TInst v)).
    - (* EIsSub *) apply (within_strict s e 0); [assumption| |unfold K; lia].
      intros v s1. destruct (issubcls v cs); [apply (within_log s1 (TSub v))|apply within_refl].
    - (* ELen *) apply (within_strict s e 0); [assumption| |unfold K; lia].
      intros v s1. destruct (py_len v); [apply (within_log s1 (TLen v))|apply within_refl].
    - (* EIndex *) apply (within_strict s e1 (K e2 + 1)); [assumption| |unfold K; lia].
      intros v s1. apply (within_strict s1 e2 1); [assumption| |lia].
      intros iv s2. destruct (py_index v iv); apply (within_log s2 (TItem v iv)).
    - (* EMod *) apply (within_strict s e1 (K e2)); [assumption| |unfold K; lia].
      intros v s1. apply (within_strict s1 e2 0); [assumption| |lia].
      intros w s2. destruct v; try apply within_refl. destruct w; try apply within_refl. destruct (z0 =? 0)%Z; apply within_refl.
    - (* EFirst *) apply (within_strict s e 1); [assumption| |unfold K; lia].
      intros v s1. destruct (py_first v); apply (within_log s1 (TFirst v)).
    - (* EFirstValue *) apply (within_strict s e 1); [assumption| |unfold K; lia].
      intros v s1. destruct (py_first_value v); apply (within_log s1 (TFirstValue v)).
    - (* EEq *) apply (within_strict s e1 (K e2)); [assumption| |unfold K; lia].
      intros v s1. apply (within_strict s1 e2 0); [assumption| |lia].
      intros w s2. apply (within_log s2 (TEq v w)).
    - (* EIs *) apply (within_strict s e1 (K e2)); [assumption| |unfold K; lia].
      intros v s1. apply (within_strict s1 e2 0); [assumption| |lia].
      intros w s2. apply within_refl.
    - (* ENot: the outcomes swap *)
      unfold sound, within in *. specialize (IHe s). destruct (eval r preds e s) as [[v|x] s1]; cbn [fst snd pick truthy] in *.
      + assert (reads (trace (if is_container v then log (TBool v) s1 else s1)) = reads (trace s1)) as ->
          by (destruct (is_container v); [rewrite reads_log; cbn; lia|reflexivity]).
        destruct (truthy v); cbn [negb]; lia.
      + lia.
    - (* EAnd: the right operand runs only after a truthy left one *)
      unfold sound, within in *. pose proof (IHe1 s) as H1. destruct (eval r preds e1 s) as [[v|x] s1]; cbn [fst snd pick] in *; [|lia].
      destruct (truthy v) eqn:T.
      + specialize (IHe2 s1). destruct (eval r preds e2 s1) as [[w|y] s2]; cbn [fst snd pick] in *; [destruct (truthy w)|]; lia.
      + cbn [fst snd pick]. rewrite T. lia.
    - (* EOr *)
      unfold sound, within in *. pose proof (IHe1 s) as H1. destruct (eval r preds e1 s) as [[v|x] s1]; cbn [fst snd pick] in *; [|lia].
      destruct (truthy v) eqn:T.
      + cbn [fst snd pick]. rewrite T. lia.
      + specialize (IHe2 s1). destruct (eval r preds e2 s1) as [[w|y] s2]; cbn [fst snd pick] in *; [destruct (truthy w)|]; lia.
    - (* EWalrus *)
      unfold sound, within in *. specialize (IHe s). destruct (eval r preds e s) as [[v|y] s1]; exact IHe.
    - (* ELet *)
      unfold sound, within in *. specialize (IHe s). pose proof (pick_le (fst (eval r preds e s)) (cost e)).
      destruct (eval r preds e s) as [[v|y] s1]; cbn [fst snd pick truthy bind trace] in *; lia.
    - (* ECallPred *) apply (within_strict s e 0); [assumption| |unfold K; lia].
      intros v s1. destruct (preds f v); apply (within_log s1 (TCall f v)).
    - (* EAttrLet *) apply (within_strict s e 0); [assumption| |unfold K; lia].
      intros v s1. destruct (py_getattr v name); exact (within_log s1 (TAttr v name) (Ok VNone)).
  Qed.

  Theorem reads_le_K e x : reads (trace_of r preds e x) <= K e.
  Proof. exact (sound_K e (st0 x) (cost_sound e)). Qed.
End CostSound.

(* one read for each container level whose child is looked at, two for the key and the value of a
   mapping; the members of a union add up (each may be tried on the same object), and so do the
   positions of a fixed tuple *)
Fixpoint bound (h : hint) : nat :=
  match h with
  | HAny | HCls _ | HShallow _ | HLiteral _ | HType _ => 0
  | HAnnot mh _ => if ignorable mh then 0 else bound mh
  | HUnion hs => (fix sum (l : list hint) : nat := match l with [] => 0 | x :: l' => bound x + sum l' end) hs
  | HCont _ ch => if ignorable ch then 0 else 1 + bound ch
  | HMap _ k v =>
      match ignorable k, ignorable v with
      | true, true => 0
      | false, false => 2 + bound k + bound v          (* one key and its value *)
      | false, true => 1 + bound k
      | true, false => 1 + bound v
      end
  | HCounter k => if ignorable k then 1 else 2 + bound k
  | HTuple hs =>
      (fix sum (l : list hint) : nat :=
         match l with [] => 0 | x :: l' => (if ignorable x then 0 else 1 + bound x) + sum l' end) hs
  end.


Definition sumK (l : list expr) : nat := list_sum (map K l).

Lemma K_var x : K (EVar x) = 0. Proof. reflexivity. Qed.
Lemma K_and a b : K (EAnd a b) <= K a + K b. Proof. unfold K. cbn [cost fst snd]. lia. Qed.
Lemma K_or a b : K (EOr a b) <= K a + K b. Proof. unfold K. cbn [cost fst snd]. lia. Qed.
Lemma K_isinst e cs : K (EIsInst e cs) = K e. Proof. unfold K. cbn [cost fst snd]. lia. Qed.
Lemma K_is a b : K (EIs a b) = K a + K b. Proof. unfold K. cbn [cost fst snd]. lia. Qed.
Lemma K_walrus x e : K (EWalrus x e) = K e. Proof. reflexivity. Qed.

Lemma K_join op l : (forall a b, K (op a b) <= K a + K b) -> K (join op l) <= sumK l.
Proof.
  intros Hop. induction l as [|a [|b l] IH]; [cbn; lia|cbn; lia|].
  rewrite join_cons2. specialize (Hop a (join op (b :: l))). change (sumK (a :: b :: l)) with (K a + sumK (b :: l)). lia.
Qed.

(* the templates, over arbitrary children; [x] is the current pith variable *)
Lemma K_container c cs a x : K (tpl_container c cs a (EVar x)) <= K a + K c.
Proof. unfold tpl_container, K. cbn [cost fst snd]. lia. Qed.

(* either branch binds the child, and only one of them runs *)
Lemma K_select g x e1 y e2 : K (EOr (EAnd g (ELet x e1)) (ELet y e2)) <= K g + Nat.max (K e1) (K e2).
Proof. unfold K. cbn [cost fst snd]. lia. Qed.

Lemma K_quasi coll c cs cv a x sq sc :
  K (tpl_quasiiterable coll c cs cv a (EVar x) sq sc) <= K a + (Nat.max (K sc) 1 + K c).
Proof.
  unfold tpl_quasiiterable. rewrite K_and, K_isinst. apply Nat.add_le_mono_l.
  rewrite K_or. change (K (ENot (EIsInst (EVar x) coll))) with 0. cbn [Nat.add].
  rewrite K_or. change (K (ENot (ELen (EVar x)))) with 0. cbn [Nat.add].
  rewrite K_and. apply Nat.add_le_mono_r. rewrite K_select. reflexivity.
Qed.

Lemma K_mapping kv cs a x : K (tpl_mapping kv cs a (EVar x)) <= K a + K kv.
Proof. exact (K_container kv cs a x). Qed.

Lemma K_key_value k v cs a x kv :
  K (tpl_mapping (tpl_mapping_key_value k v (EVar x) kv) cs a (EVar x)) <= K a + (1 + K k + K v).
Proof. rewrite K_mapping. unfold tpl_mapping_key_value, K. cbn [cost fst snd]. lia. Qed.

Section GenCost.
  Variable cf : gconf.

  Lemma K_assign pith idx : K (node_assign pith idx) = K pith.
  Proof. unfold node_assign. destruct (simple pith); reflexivity. Qed.

  Lemma K_seq_child x : K (seq_child cf (EVar x)) = 1.
  Proof. unfold seq_child. destruct (is_random cf); reflexivity. Qed.

  Definition cost_ok (h : hint) : Prop := forall pith idx, K (gen cf h pith idx) <= K pith + bound h.

  Lemma cost_cont s ch : cost_ok ch -> cost_ok (HCont s ch).
  Proof.
    intros IH pith idx. cbn [bound]. destruct (ignorable ch) eqn:Hig.
    - cbn [gen]. rewrite Hig. unfold tpl_instance. rewrite K_isinst. lia.
    - cbn [gen]. rewrite Hig. fold_node.
      destruct (sign_family s) as [[| |]|]; [| | |cbn; lia].
      + rewrite K_container, K_assign. apply Nat.add_le_mono_l. rewrite (IH _ _), K_seq_child. lia.
      + rewrite K_container, K_assign. apply Nat.add_le_mono_l. rewrite (IH _ _). cbn. lia.
      + rewrite K_quasi, K_assign, K_seq_child. do 2 apply Nat.add_le_mono_l. apply IH.
  Qed.

  Lemma cost_map s k v : cost_ok k -> cost_ok v -> cost_ok (HMap s k v).
  Proof.
    intros IHk IHv pith idx. cbn [gen bound]. fold_node. set (i := node_i pith idx).
    destruct (ignorable k), (ignorable v).
    - unfold tpl_instance. rewrite K_isinst. lia.
    - rewrite K_mapping, K_assign. apply Nat.add_le_mono_l. unfold tpl_mapping_value_only. rewrite (IHv _ _). cbn. lia.
    - rewrite K_mapping, K_assign. apply Nat.add_le_mono_l. unfold tpl_mapping_key_only. rewrite (IHk _ _). cbn. lia.
    - rewrite K_key_value, K_assign.
      pose proof (IHk (EVar (Pith (S i))) (S i)) as Hk.
      pose proof (IHv (tpl_mapping_key_value_child (EVar (Pith i)) (EVar (Pith (S i)))) (S i)) as Hv. cbn in *. lia.
  Qed.

  Lemma cost_counter k : cost_ok k -> cost_ok (HCounter k).
  Proof.
    intros IHk pith idx. cbn [gen bound]. fold_node.
    destruct (ignorable k).
    - rewrite K_mapping, K_assign. cbn. lia.
    - rewrite K_key_value, K_assign.
      pose proof (IHk (EVar (Pith (S (node_i pith idx)))) (S (node_i pith idx))) as Hk. cbn in *. lia.
  Qed.

  Lemma cost_type cs : cost_ok (HType cs).
  Proof.
    intros pith idx. cbn [gen bound]. fold_node. unfold tpl_subclass.
    rewrite K_and, K_isinst, K_assign. cbn. lia.
  Qed.

  Lemma sumK_zero {A} (f : A -> expr) l : (forall a, K (f a) = 0) -> sumK (map f l) = 0.
  Proof. intros H. induction l as [|a l IH]; [reflexivity|]. cbn [map]. change (K (f a) + sumK (map f l) = 0). now rewrite H, IH. Qed.

  Lemma cost_literal vs : cost_ok (HLiteral vs).
  Proof.
    intros pith idx. cbn [gen bound]. fold_node.
    unfold tpl_literal_outer_op, tpl_literal_prefix, tpl_literal_inner_op.
    rewrite K_and, K_isinst, K_assign. apply Nat.add_le_mono_l.
    rewrite (K_join EOr _ K_or), sumK_zero; [lia|reflexivity].
  Qed.

  Definition sum_tuple :=
    fix sum (l : list hint) : nat :=
      match l with [] => 0 | x :: l' => (if ignorable x then 0 else 1 + bound x) + sum l' end.

  Lemma cost_tuple_kids i l : Forall cost_ok l -> forall n,
    sumK (tuple_kids cf i (EVar (Pith i)) l n) <= sum_tuple l.
  Proof.
    induction 1 as [|h l Hh Hl IH]; intros n; [cbn; lia|]. cbn [tuple_kids sum_tuple].
    specialize (IH (n + 1)%Z). destruct (ignorable h); [lia|].
    change (sumK (?a :: ?l)) with (K a + sumK l). specialize (Hh (tpl_tuple_child n (EVar (Pith i))) i).
    change (K (tpl_tuple_child _ _)) with 1 in Hh. lia.
  Qed.

  Lemma cost_tuple hs : Forall cost_ok hs -> cost_ok (HTuple hs).
  Proof.
    intros IH pith idx. destruct hs as [|h0 hs].
    - cbn [gen bound]. fold_node. unfold tpl_tuple_op, tpl_tuple_prefix.
      rewrite K_and, K_isinst, K_assign. cbn. lia.
    - rewrite gen_tuple_unfold. rewrite (K_join _ _ K_and).
      change (sumK (?a :: ?b :: ?l)) with (K a + (K b + sumK l)). unfold tpl_tuple_prefix.
      rewrite K_isinst, K_assign. apply Nat.add_le_mono_l. apply (cost_tuple_kids _ _ IH).
  Qed.

  Definition sum_bound :=
    fix sum (l : list hint) : nat := match l with [] => 0 | x :: l' => bound x + sum l' end.

  (* only the first member may be handed the assignment, and only when no class test precedes it *)
  Lemma cost_union_peps assign i hn l : Forall cost_ok l -> forall is_first,
    sumK (union_peps cf assign (EVar (Pith i)) i hn l is_first)
    <= (if is_first && negb hn then K assign else 0) + sum_bound l.
  Proof.
    induction 1 as [|h l Hh Hl IH]; intros is_first; [cbn; lia|]. cbn [union_peps sum_bound].
    destruct (nonpep_class h); [specialize (IH is_first); lia|].
    change (sumK (?a :: ?l)) with (K a + sumK l). specialize (IH false). cbn [andb] in IH.
    specialize (Hh (if is_first && negb hn then assign else EVar (Pith i)) i).
    destruct (is_first && negb hn); [|rewrite K_var in Hh]; lia.
  Qed.

  Lemma sumK_app a b : sumK (a ++ b) = sumK a + sumK b.
  Proof. unfold sumK. now rewrite map_app, list_sum_app. Qed.

  Lemma cost_union hs : Forall cost_ok hs -> cost_ok (HUnion hs).
  Proof.
    intros IH pith idx. rewrite gen_union_unfold. cbn zeta. rewrite (K_join _ _ K_or), sumK_app.
    change (bound (HUnion hs)) with (sum_bound hs).
    pose proof (fun hn => cost_union_peps (node_assign pith idx) (node_i pith idx) hn hs IH true) as Hp.
    rewrite K_assign in Hp. destruct (union_nonpep hs) as [|c0 cs].
    - specialize (Hp false). cbn in *. lia.
    - specialize (Hp true). change (sumK [?a]) with (K a + 0). unfold tpl_union_nonpep. rewrite K_isinst.
      destruct (union_peps _ _ _ _ _ _); [|rewrite K_assign]; cbn [andb negb] in Hp; lia.
  Qed.

  Lemma K_vcode w : forall x, K (vcode w x) = 0.
  Proof.
    induction w as [f|n w IH|o|cs|cs|a IHa b IHb|a IHa b IHb|a IHa]; intros x; cbn [vcode]; try reflexivity.
    - specialize (IH (attr_tmp x n)). unfold tpl_vale_isattr, K in *. cbn [cost fst snd]. lia.
    - pose proof (K_and (vcode a x) (vcode b x)). rewrite IHa, IHb in *. lia.
    - pose proof (K_or (vcode a x) (vcode b x)). rewrite IHa, IHb in *. lia.
    - specialize (IHa x). unfold K in *. cbn [cost fst snd]. lia.
  Qed.

  Lemma cost_annot mh vs : cost_ok mh -> cost_ok (HAnnot mh vs).
  Proof.
    intros IH pith idx. cbn [gen bound]. fold_node.
    assert (Hv : forall x, sumK (map (fun w => vcode w x) vs) = 0) by (intros x; apply sumK_zero; intros w; apply K_vcode).
    destruct (ignorable mh); [destruct (is_ident pith) as [x|]|]; rewrite (K_join _ _ K_and).
    - rewrite Hv. lia.
    - change (sumK (?a :: ?l)) with (K a + sumK l). rewrite Hv.
      unfold tpl_annotated_pith. rewrite K_is, K_assign, K_var. lia.
    - change (sumK (?a :: ?l)) with (K a + sumK l). rewrite Hv.
      pose proof (IH (node_assign pith idx) (node_i pith idx)) as H. rewrite K_assign in H. lia.
  Qed.

  Theorem gen_cost h : cost_ok h.
  Proof.
    induction h using hint_ind2.
    - intros pith idx. cbn. lia.
    - intros pith idx. cbn [gen bound]. unfold tpl_instance. rewrite K_isinst. lia.
    - intros pith idx. cbn [gen bound]. unfold tpl_instance. rewrite K_isinst. lia.
    - now apply cost_union.
    - now apply cost_cont.
    - now apply cost_map.
    - now apply cost_counter.
    - now apply cost_tuple.
    - apply cost_literal.
    - apply cost_type.
    - now apply cost_annot.
  Qed.

  (* the number of items read by a whole check is bounded by a function of the hint alone, for
     every object (of any size, well-formed or not), every draw, and however the check ends *)
  Theorem check_reads_bounded r preds h x : reads (trace_of r preds (check_expr cf h) x) <= bound h.
  Proof.
    rewrite reads_le_K. unfold check_expr. destruct (ignorable h); [cbn; lia|]. apply gen_cost.
  Qed.
End GenCost.
