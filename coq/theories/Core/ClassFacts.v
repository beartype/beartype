(* Shared core: finite facts about the regenerated class table and sign sets (Python facts,
   checked by computation on every build), and what well-formedness of an object gives. *)
From Coq Require Import List ZArith Bool Lia.
From BT Require Import Gen.ClassTable Gen.SignSets Core.PyVal Core.Hint Core.Check.
Import ListNotations.

Definition ids : list nat := seq 0 class_count.

Lemma in_ids a : a < class_count -> In a ids.
Proof. intros. apply in_seq. lia. Qed.

(* the table is square, so [issub] is false outside it *)
Lemma issub_range a b : issub a b = true -> a < class_count /\ b < class_count.
Proof.
  assert (Hr : forallb (fun row => Nat.eqb (List.length row) class_count) issub_matrix = true) by reflexivity.
  rewrite forallb_forall in Hr. unfold issub. intros E.
  assert (La : a < List.length issub_matrix).
  { apply Nat.nle_gt. intros La. rewrite (nth_overflow issub_matrix) in E by exact La. destruct b; discriminate. }
  split; [exact La|]. apply Nat.nle_gt. intros Lb.
  rewrite nth_overflow in E; [discriminate|].
  now rewrite (proj1 (Nat.eqb_eq _ _) (Hr _ (nth_In _ _ La))).
Qed.

(* issubclass is a preorder, except towards Hashable (list <= object <= Hashable, but list is
   not Hashable: a class may unset __hash__).  The sweep looks at the superclasses c of b only
   for the few pairs with a <= b, and fetches each row once (which is why [issub] is written
   out). *)
Definition trans_ok : bool :=
  forallb (fun a => let ra := nth a issub_matrix [] in forallb (fun b => implb (nth b ra false)
    (let rb := nth b issub_matrix [] in forallb (fun c =>
       implb (nth c rb false && negb (Nat.eqb c c_Hashable)) (nth c ra false)) ids)) ids) ids.

Lemma trans_ok_true : trans_ok = true.
Proof. vm_compute. reflexivity. Qed.

Lemma issub_trans a b c : c <> c_Hashable -> issub a b = true -> issub b c = true -> issub a c = true.
Proof.
  intros Hc H1 H2. destruct (issub_range _ _ H1) as [La Lb], (issub_range _ _ H2) as [_ Lc].
  generalize trans_ok_true. unfold trans_ok, issub in *.
  rewrite forallb_forall. intros H. generalize (H a (in_ids _ La)). clear H.
  rewrite forallb_forall. intros H. generalize (H b (in_ids _ Lb)). clear H. rewrite H1. cbn [implb].
  rewrite forallb_forall. intros H. generalize (H c (in_ids _ Lc)).
  rewrite H2, (proj2 (Nat.eqb_neq _ _) Hc). exact (fun X => X).
Qed.

Lemma issub_refl a : a < class_count -> issub a a = true.
Proof.
  assert (H : forallb (fun a => issub a a) ids = true) by reflexivity.
  rewrite forallb_forall in H. intros La. apply H, in_ids, La.
Qed.

Lemma sized_of_collection c : issub c c_Collection = true -> issub c c_Sized = true.
Proof. intros H. eapply issub_trans; [|exact H|reflexivity]; discriminate. Qed.
Lemma iterable_of_collection c : issub c c_Collection = true -> issub c c_Iterable = true.
Proof. intros H. eapply issub_trans; [|exact H|reflexivity]; discriminate. Qed.
Lemma collection_of_sequence c : issub c c_Sequence = true -> issub c c_Collection = true.
Proof. intros H. eapply issub_trans; [|exact H|reflexivity]; discriminate. Qed.
Lemma collection_of_mapping c : issub c c_Mapping = true -> issub c c_Collection = true.
Proof. intros H. eapply issub_trans; [|exact H|reflexivity]; discriminate. Qed.

Lemma not_Mapping_and_Sequence c : issub c c_Mapping = true -> issub c c_Sequence = true -> False.
Proof.
  assert (H : forallb (fun c => negb (issub c c_Mapping && issub c c_Sequence)) ids = true) by reflexivity.
  rewrite forallb_forall in H. intros H1 H2.
  specialize (H c (in_ids _ (proj1 (issub_range _ _ H1)))). rewrite H1, H2 in H. discriminate.
Qed.

Lemma family_origin s :
  match sign_family s with
  | Some FSequence => issub (sign_origin s) c_Sequence = true
  | Some FReiterable => issub (sign_origin s) c_Collection = true
  | _ => True
  end.
Proof. (* the fifteen signs of Gen/SignSets.v, one by one *) do 15 (destruct s as [|s]; [first [exact I|reflexivity]|]). exact I. Qed.

Lemma map_origin_mapping s : In s map_signs -> issub (map_origin s) c_Mapping = true.
Proof.
  assert (H : forallb (fun s => issub (map_origin s) c_Mapping) map_signs = true) by reflexivity.
  rewrite forallb_forall in H. apply H.
Qed.

Lemma counter_origin_mapping : issub counter_origin c_Mapping = true.
Proof. reflexivity. Qed.

Lemma isinst_single y c : isinst y [c] = issub (type_of y) c.
Proof. apply orb_false_r. Qed.

Lemma isinst_sub y o c : c <> c_Hashable -> isinst y [o] = true -> issub o c = true -> issub (type_of y) c = true.
Proof. rewrite isinst_single. apply issub_trans. Qed.

(* a class list without its duplicates (the generated code tests each class once) *)
Lemma isinst_dedup y l : isinst y (dedup l) = isinst y l.
Proof.
  unfold isinst. induction l as [|x l IH]; [reflexivity|]. cbn [dedup].
  destruct (existsb (Nat.eqb x) l) eqn:Ex; cbn [existsb]; rewrite IH; [|reflexivity].
  apply existsb_exists in Ex as (x' & Hin & <-%Nat.eqb_eq).
  destruct (issub (type_of y) x) eqn:Es; [|reflexivity]. cbn. apply existsb_exists. eauto.
Qed.

Lemma dedup_nil l : dedup l = [] -> l = [].
Proof.
  induction l as [|x l IH]; [reflexivity|]. cbn [dedup]. destruct (existsb (Nat.eqb x) l) eqn:Ex; [|discriminate].
  intros H. rewrite (IH H) in Ex. discriminate.
Qed.

Lemma plain_facts c : plain c = true ->
  issub c c_Sized = false /\ issub c c_Iterable = false /\ issub c c_Container = false /\ issub c c_type = false.
Proof.
  unfold plain. intros H. repeat (apply andb_true_iff in H as [H ?]).
  repeat match goal with Y : negb _ = true |- _ => apply negb_true_iff in Y end. auto.
Qed.

(* a well-formed object has the shape its class promises: the instances of type are the [VCls], those of
   Mapping the [VMap], and what is Sized, Iterable or a Container has items (scalars, classes and plain
   instances are none of the three) *)
Lemma wf_class y : wf y = true ->
  issub (type_of y) c_type = match y with VCls _ => true | _ => false end /\
  issub (type_of y) c_Mapping = match y with VMap _ _ => true | _ => false end /\
  (forall c, In c [c_Sized; c_Iterable; c_Container] -> issub (type_of y) c = true -> items_of y = Some (items y)).
Proof.
  destruct y as [| b | z | h | s | s | k l | k kvs | k | k attrs]; cbn [wf type_of]; intros Hw;
    try (repeat split; intros c [<-|[<-|[<-|[]]]]; discriminate).
  - repeat (apply andb_true_iff in Hw as [Hw ?]). now repeat (split; [now apply negb_true_iff|]).
  - apply andb_true_iff in Hw as [Hw _]. apply andb_true_iff in Hw as [-> ->%negb_true_iff]. now repeat split.
  - apply andb_true_iff in Hw as [Hp _]. destruct (plain_facts _ Hp) as (A & B & C & D).
    split; [exact D|]. split; [|intros c [<-|[<-|[<-|[]]]]; congruence].
    destruct (issub k c_Mapping) eqn:Hm; [|reflexivity].
    now rewrite (sized_of_collection _ (collection_of_mapping _ Hm)) in A.
Qed.

Lemma items_of_some y c :
  wf y = true -> In c [c_Sized; c_Iterable; c_Container] -> issub (type_of y) c = true ->
  items_of y = Some (items y).
Proof. intros Hw. apply (wf_class y Hw). Qed.

Lemma sized_items y : wf y = true -> issub (type_of y) c_Sized = true -> items_of y = Some (items y).
Proof. intros Hw. apply (items_of_some y c_Sized Hw). now left. Qed.

Lemma wf_entry c kvs k x : wf (VMap c kvs) = true -> In (k, x) kvs ->
  wf k = true /\ wf x = true /\ py_eq k k = true.
Proof.
  cbn [wf]. intros [_ H]%andb_true_iff Hin. rewrite forallb_forall in H.
  apply H in Hin as [[Hk Hx]%andb_true_iff He]%andb_true_iff. auto.
Qed.

Lemma wf_items y x : wf y = true -> In x (items y) -> wf x = true.
Proof.
  unfold items. destruct y as [| b | z | h | s | s | k l | k kvs | k | k attrs]; cbn [items_of In]; try tauto.
  - induction s as [|a s IH]; cbn [chars In]; [tauto|]. intros _ [<-|H]; [reflexivity|now apply IH].
  - induction s as [|a s IH]; cbn [byte_ints In]; [tauto|]. intros _ [<-|H]; [reflexivity|now apply IH].
  - cbn [wf]. intros H. apply andb_true_iff in H as [_ H]. rewrite forallb_forall in H. apply H.
  - intros H ([k0 v] & <- & Hin)%in_map_iff. apply (wf_entry _ _ _ _ H Hin).
Qed.

Lemma wf_nth y n : wf y = true -> n < List.length (items y) -> wf (nth n (items y) VNone) = true.
Proof. intros Hw Hn. apply (wf_items y _ Hw). now apply nth_In. Qed.

Lemma len0_false y : len0 y = false <-> items y <> [].
Proof. unfold len0. destruct (items y); split; congruence. Qed.

Section Sampled.
  Variable cf : gconf.
  Variable r : Z.

  Lemma first_in y : items y <> [] -> In (first y) (items y).
  Proof. unfold first. destruct (items y); [congruence|]. intros _. now left. Qed.

  Lemma sample_index y : items y <> [] ->
    (0 <= r mod Z.of_nat (List.length (items y)) < Z.of_nat (List.length (items y)))%Z.
  Proof. intros Hne. apply Z.mod_pos_bound. destruct (items y); [congruence|cbn; lia]. Qed.

  Lemma sample_in y : items y <> [] -> In (sample cf r y) (items y).
  Proof.
    intros Hne. unfold sample. destruct (is_random cf); [|now apply first_in].
    pose proof (sample_index y Hne). destruct (items y); [congruence|]. apply nth_In. lia.
  Qed.

  Lemma wf_first y : wf y = true -> items y <> [] -> wf (first y) = true.
  Proof. intros Hw Hne. exact (wf_items y _ Hw (first_in y Hne)). Qed.

  Lemma wf_sample y : wf y = true -> items y <> [] -> wf (sample cf r y) = true.
  Proof. intros Hw Hne. exact (wf_items y _ Hw (sample_in y Hne)). Qed.
End Sampled.

Lemma py_len_sized y : wf y = true -> issub (type_of y) c_Sized = true ->
  py_len y = Ok (Z.of_nat (List.length (items y))).
Proof. intros Hw Hs. unfold py_len. now rewrite Hs, (sized_items y Hw Hs). Qed.

(* len(...) == n as the generated code compares it *)
Lemma py_eq_len a b : py_eq (VInt (Z.of_nat a)) (VInt (Z.of_nat b)) = Nat.eqb a b.
Proof.
  change (py_eq _ _) with (2 * Z.of_nat a =? 2 * Z.of_nat b)%Z.
  destruct (Nat.eqb_spec a b) as [->|N]; [apply Z.eqb_refl|apply Z.eqb_neq; lia].
Qed.

Lemma not_map_of_sequence c kvs : wf (VMap c kvs) = true -> issub c c_Sequence = true -> False.
Proof. intros Hw. exact (not_Mapping_and_Sequence c (proj1 (proj2 (wf_class _ Hw)))). Qed.

Lemma py_index_sequence y z : wf y = true -> issub (type_of y) c_Sequence = true ->
  (0 <= z < Z.of_nat (List.length (items y)))%Z ->
  py_index y (VInt z) = Ok (nth (Z.to_nat z) (items y) VNone).
Proof.
  intros Hw Hs Hz. unfold py_index.
  pose proof (sized_items y Hw (sized_of_collection _ (collection_of_sequence _ Hs))) as Hi.
  destruct y; try (rewrite Hs, Hi; destruct (0 <=? z)%Z eqn:E; [|lia];
                   rewrite (nth_error_nth' _ VNone) by lia; reflexivity).
  destruct (not_map_of_sequence _ _ Hw Hs).
Qed.

Lemma py_first_iterable y : wf y = true -> issub (type_of y) c_Iterable = true -> items y <> [] ->
  py_first y = Ok (first y).
Proof.
  intros Hw Hs Hne. unfold py_first, first. rewrite Hs, (items_of_some y c_Iterable Hw) by (cbn [In]; tauto).
  destruct (items y); [congruence|reflexivity].
Qed.

Lemma wf_type_shape y : wf y = true -> issub (type_of y) c_type = true -> exists c, y = VCls c.
Proof. intros Hw Hm. rewrite (proj1 (wf_class y Hw)) in Hm. destruct y; try discriminate Hm. eauto. Qed.

Lemma wf_mapping_shape y : wf y = true -> issub (type_of y) c_Mapping = true -> exists c kvs, y = VMap c kvs.
Proof. intros Hw Hm. rewrite (proj1 (proj2 (wf_class y Hw))) in Hm. destruct y; try discriminate Hm. eauto. Qed.

(* the first key of a non-empty mapping is present, so that all three ways of reaching its first value agree *)
Lemma map_head c k x rest : let y := VMap c ((k, x) :: rest) in
  wf y = true ->
  wf k = true /\ wf x = true /\ first y = k /\ first_value y = x /\ value_of_first_key y = x
  /\ lookup k ((k, x) :: rest) = Some x.
Proof.
  cbn zeta. intros H. destruct (wf_entry c _ k x H (or_introl eq_refl)) as (H1 & H2 & Hk).
  assert (L : lookup k ((k, x) :: rest) = Some x) by (cbn [lookup]; now rewrite Hk).
  repeat split; auto. unfold value_of_first_key, first, items. cbn [items_of map fst nth]. now rewrite L.
Qed.

Lemma map_nonempty y : wf y = true -> issub (type_of y) c_Mapping = true -> items y <> [] ->
  exists c k x rest, y = VMap c ((k, x) :: rest).
Proof.
  intros Hw Hm Hne. destruct (wf_mapping_shape y Hw Hm) as (c & [|[k x] rest] & ->); [now destruct Hne|eauto].
Qed.

Lemma wf_first_value y : wf y = true -> issub (type_of y) c_Mapping = true -> items y <> [] ->
  wf (first_value y) = true /\ value_of_first_key y = first_value y.
Proof.
  intros Hw Hm Hne. destruct (map_nonempty y Hw Hm Hne) as (c & k & x & rest & ->).
  now destruct (map_head c k x rest Hw) as (_ & Hx & _ & -> & -> & _).
Qed.

Lemma wf_getattr y n a : wf y = true -> py_getattr y n = Some a -> wf a = true.
Proof.
  destruct y; cbn [py_getattr]; try discriminate. cbn [wf]. intros H Ha.
  apply andb_true_iff in H as [_ H]. induction attrs as [|[k v] l IH]; cbn [attr_get forallb snd] in *; [discriminate|].
  apply andb_true_iff in H as [Hv Hl]. destruct (String.eqb k n); [now inversion Ha; subst|now apply IH].
Qed.

Lemma coll_items_some y : wf y = true -> issub (type_of y) c_Collection = true -> coll_items y = Some (items y).
Proof. intros Hw Hc. unfold coll_items. rewrite Hc. apply (sized_items y Hw), sized_of_collection, Hc. Qed.

Lemma truthy_sized y : wf y = true -> issub (type_of y) c_Sized = true -> truthy y = negb (len0 y).
Proof.
  intros Hw Hz. pose proof (sized_items y Hw Hz) as Hi. unfold len0, items.
  destruct y as [| | | | s | s | c l | c kvs | |]; try discriminate Hi; cbn [truthy items_of];
    try (now destruct s); [|now destruct kvs].
  cbn [type_of] in Hz. rewrite Hz. now destruct l.
Qed.
