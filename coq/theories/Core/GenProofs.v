(* Shared core: the generated check expression evaluates, on every well-formed object, in
   every state and for every draw, to exactly the sampled semantics [chk] — without raising —
   and leaves the pith variables of enclosing nodes untouched.

   The proof is a Hoare logic in miniature.  [runs I e v J]: from every state satisfying I the
   expression e evaluates, without raising, to v and ends in a state satisfying J.  The
   invariants are [agree n E]: the first n pith variables hold what E says and every protocol
   operation logged so far is safe.  Each template is then proved once, by the rules that
   follow its syntax. *)
From Coq Require Import List ZArith Bool Lia.
From BT Require Import Gen.ClassTable Gen.SignSets Gen.Templates.
From BT Require Import Core.PyVal Core.Expr Core.Hint Core.Check Core.Cause Core.Induct Core.ClassFacts Core.CheckFacts.
Import ListNotations.

(* members of a Literal are None, bools, ints, strs or bytes (PEP 586) *)
Definition lit_scalar (v : pyval) : bool :=
  match v with VNone | VBool _ | VInt _ | VStr _ | VBytes _ => true | _ => false end.

(* the hints the generator is proved for: a union has a member (typing builds no empty union), the sign of a
   container is in the family tables and that of a mapping in [map_signs], the members of a Literal are scalars.
   An Annotated has a validator: beartype checks one without a validator of its own as its first argument, and
   that argument is what the harness hands over; no proof uses this clause *)
Fixpoint hint_ok (h : hint) : bool :=
  match h with
  | HAny | HCls _ | HShallow _ | HType _ => true
  | HLiteral vs => forallb lit_scalar vs
  | HAnnot mh vs => match vs with [] => false | _ => true end && hint_ok mh
  | HUnion hs =>
      match hs with [] => false | _ => true end &&
      (fix all (l : list hint) : bool := match l with [] => true | x :: l' => hint_ok x && all l' end) hs
  | HCont s ch => match sign_family s with Some _ => true | None => false end && hint_ok ch
  | HMap s k v => existsb (Nat.eqb s) map_signs && hint_ok k && hint_ok v
  | HCounter k => hint_ok k
  | HTuple hs =>
      (fix all (l : list hint) : bool := match l with [] => true | x :: l' => hint_ok x && all l' end) hs
  end.

Lemma literal_class_refl v : lit_scalar v = true -> issub (type_of v) (type_of v) = true.
Proof. now destruct v. Qed.

(* induction over supported hints: what [hint_ok] says of each node is handed to its case (but for the
   validator of an Annotated, which no case needs) *)
Section HintOkInd.
  Variable P : hint -> Prop.
  Hypothesis PAny : P HAny.
  Hypothesis PCls : forall c, P (HCls c).
  Hypothesis PShallow : forall c, P (HShallow c).
  Hypothesis PUnion : forall hs, hs <> [] -> Forall P hs -> P (HUnion hs).
  Hypothesis PCont : forall s ch, sign_family s <> None -> P ch -> P (HCont s ch).
  Hypothesis PMap : forall s k v, In s map_signs -> P k -> P v -> P (HMap s k v).
  Hypothesis PCounter : forall k, P k -> P (HCounter k).
  Hypothesis PTuple : forall hs, Forall P hs -> P (HTuple hs).
  Hypothesis PLiteral : forall vs, forallb lit_scalar vs = true -> P (HLiteral vs).
  Hypothesis PType : forall cs, P (HType cs).
  Hypothesis PAnnot : forall mh vs, P mh -> P (HAnnot mh vs).

  Lemma hint_ok_ind h : hint_ok h = true -> P h.
  Proof.
    assert (all_ok : forall l, Forall (fun h => hint_ok h = true -> P h) l -> forallb hint_ok l = true -> Forall P l).
    { intros l Hl Hall. rewrite forallb_forall in Hall. rewrite Forall_forall in *. auto. }
    induction h using hint_ind2; cbn [hint_ok]; intros Hok; auto.
    - apply andb_true_iff in Hok as [Hne Hall]. apply PUnion; [now destruct hs|auto].
    - apply andb_true_iff in Hok as [Hf Hc]. apply PCont; [now destruct (sign_family s)|auto].
    - apply andb_true_iff in Hok as [Hok Hv]. apply andb_true_iff in Hok as [Hs Hk].
      apply existsb_exists in Hs as (x & Hin & Hx). apply Nat.eqb_eq in Hx. subst x. auto.
    - apply andb_true_iff in Hok as [_ Hm]. auto.
  Qed.
End HintOkInd.

Definition upd (E : nat -> option pyval) (i : nat) (y : pyval) : nat -> option pyval :=
  fun k => if Nat.eqb k i then Some y else E k.

Lemma upd_self E i y : upd E i y i = Some y.
Proof. unfold upd. now rewrite Nat.eqb_refl. Qed.
Lemma upd_other E i j y : i <> j -> upd E j y i = E i.
Proof. intros H. unfold upd. now destruct (Nat.eqb_spec i j). Qed.
Lemma upd_id E i y k : E i = Some y -> upd E i y k = E k.
Proof. intros H. unfold upd. destruct (Nat.eqb_spec k i); congruence. Qed.

(* protocol operations that cannot disturb the object they are applied to: len() of a Sized
   object, indexing a Sequence within bounds or a mapping at a key it holds (so __missing__
   cannot fire), next(iter(.)) only of re-iterable Collections (never of a one-shot iterator
   or generator) and next(iter(.values())) only of Mappings *)
Definition safe_op (t : top) : Prop :=
  match t with
  | TLen v => issub (type_of v) c_Sized = true
  | TItem v i =>
      match v with
      | VMap _ kvs => lookup i kvs <> None
      | _ => issub (type_of v) c_Sequence = true /\
             exists z, i = VInt z /\ (0 <= z < Z.of_nat (List.length (items v)))%Z
      end
  | TFirst v => issub (type_of v) c_Collection = true
  | TFirstValue v => issub (type_of v) c_Mapping = true
  | TInst _ | TSub _ | TBool _ | TEq _ _ | TCall _ _ | TAttr _ _ => True
  end.

Lemma safe_item_seq y z : wf y = true -> issub (type_of y) c_Sequence = true ->
  (0 <= z < Z.of_nat (List.length (items y)))%Z -> safe_op (TItem y (VInt z)).
Proof.
  intros Hw Hs Hz. cbn [safe_op]. destruct y; try (split; [exact Hs|eauto]).
  destruct (not_map_of_sequence _ _ Hw Hs).
Qed.

Lemma safe_log t s : safe_op t -> Forall safe_op (trace s) -> Forall safe_op (trace (log t s)).
Proof. intros Ht Hs. apply Forall_app. split; [exact Hs|now constructor]. Qed.

Definition agree (n : nat) (E : nat -> option pyval) (s : st) : Prop :=
  (forall k, k < n -> env_get (Pith k) (env s) = E k) /\ Forall safe_op (trace s).

Lemma agree_get n E s k : agree n E s -> k < n -> env_get (Pith k) (env s) = E k.
Proof. intros [H _] L. now apply H. Qed.

Lemma agree_safe n E s : agree n E s -> Forall safe_op (trace s).
Proof. now intros [_ H]. Qed.

Lemma agree_ext m n E E' s : m <= n -> (forall k, k < m -> E k = E' k) -> agree n E s -> agree m E' s.
Proof. intros L HE [H T]. split; [|exact T]. intros k Hk. rewrite <- HE by exact Hk. apply H. lia. Qed.

Lemma agree_log n E t s : safe_op t -> agree n E s -> agree n E (log t s).
Proof. intros Hs [H T]. split; [exact H|now apply safe_log]. Qed.

Lemma agree_bind_ge n E s k v : agree n E s -> n <= k -> agree n E (bind (Pith k) v s).
Proof.
  intros [H T] L. split; [|exact T]. intros j Hj. unfold bind; cbn.
  destruct (Nat.eqb_spec j k); [lia|]. now apply H.
Qed.

Lemma agree_bind n E s v : agree n E s -> agree (S n) (upd E n v) (bind (Pith n) v s).
Proof.
  intros [H T]. split; [|exact T]. intros j Hj. unfold bind, upd; cbn.
  destruct (Nat.eqb_spec j n); [reflexivity|]. apply H. lia.
Qed.

Lemma path_eqb_eq a : forall b, path_eqb a b = true <-> a = b.
Proof.
  induction a as [|x a IH]; intros [|y b]; cbn; try easy.
  rewrite andb_true_iff, String.eqb_eq, IH. split; [intros [-> ->]; reflexivity|intros H; now inversion H].
Qed.

Lemma var_eqb_eq a b : var_eqb a b = true <-> a = b.
Proof.
  destruct a as [n|n p], b as [m|m q]; cbn; split; intros H; try discriminate.
  - apply Nat.eqb_eq in H. now subst.
  - inversion H. apply Nat.eqb_refl.
  - apply andb_true_iff in H as [H1 H2]. apply Nat.eqb_eq in H1. apply path_eqb_eq in H2. now subst.
  - inversion H; subst. rewrite Nat.eqb_refl. cbn. now apply path_eqb_eq.
Qed.

Lemma env_get_bind_same x v s : env_get x (env (bind x v s)) = Some v.
Proof. unfold bind; cbn. now rewrite (proj2 (var_eqb_eq x x) eq_refl). Qed.

Lemma env_get_bind_other x y v s : x <> y -> env_get x (env (bind y v s)) = env_get x (env s).
Proof.
  intros H. unfold bind; cbn. destruct (var_eqb x y) eqn:E; [apply var_eqb_eq in E; congruence|reflexivity].
Qed.

(* x is a temporary created below obj: its name strictly extends obj's *)
Definition extends (obj x : var) : Prop :=
  match obj, x with
  | Pith n, Tmp m p => n = m /\ p <> []
  | Tmp n p, Tmp m q => n = m /\ exists suf, suf <> [] /\ q = p ++ suf
  | _, _ => False
  end.

Lemma extends_irrefl x : ~ extends x x.
Proof.
  destruct x as [n|n p]; cbn; [tauto|]. intros (_ & suf & Hne & E).
  rewrite <- (app_nil_r p) in E at 1. exact (Hne (eq_sym (app_inv_head _ _ _ E))).
Qed.

Lemma extends_attr obj n : extends obj (attr_tmp obj n).
Proof.
  destruct obj as [k|k p]; cbn; (split; [reflexivity|]); [discriminate|].
  exists [n]. split; [discriminate|reflexivity].
Qed.

Lemma extends_trans a b c : extends a b -> extends b c -> extends a c.
Proof.
  destruct a as [n|n p], b as [m|m q], c as [k|k t]; cbn; try tauto.
  - intros (-> & Hq) (-> & suf & Hs & ->). split; [reflexivity|]. destruct q; [congruence|discriminate].
  - intros (-> & s1 & H1 & ->) (-> & s2 & H2 & ->). split; [reflexivity|].
    exists (s1 ++ s2). split; [destruct s1; [congruence|discriminate]|now rewrite app_assoc].
Qed.

Section Correct.
  Variable cf : gconf.
  Variable r : Z.
  Variable pb : nat -> pyval -> bool.
  Notation preds := (preds_of pb).
  Notation ev := (eval r preds).

  Lemma ev_var n E s i y : agree n E s -> i < n -> E i = Some y -> ev (EVar (Pith i)) s = (Ok y, s).
  Proof. intros H L He. cbn. rewrite (agree_get _ _ _ _ H L), He. reflexivity. Qed.

  Definition runs (I : st -> Prop) (e : expr) (v : pyval) (J : st -> Prop) : Prop :=
    forall s, I s -> exists s', ev e s = (Ok v, s') /\ J s'.
  Notation keeps I e v := (runs I e v I).
  Implicit Types I J K : st -> Prop.

  Lemma runs_post I e v J (J' : st -> Prop) : runs I e v J -> (forall s, J s -> J' s) -> runs I e v J'.
  Proof. intros H HJ s Hs. destruct (H s Hs) as (s' & E & Hs'). eauto. Qed.

  Lemma runs_pre I (I' : st -> Prop) e v J : (forall s, I' s -> I s) -> runs I e v J -> runs I' e v J.
  Proof. intros HI H s Hs. exact (H s (HI s Hs)). Qed.

  Lemma keeps_const I e v : (forall s, ev e s = (Ok v, s)) -> keeps I e v.
  Proof. intros H s Hs. exists s. auto. Qed.

  Lemma runs_and I J a b (ba bb : bool) :
    runs I a (VBool ba) J -> (ba = true -> keeps J b (VBool bb)) -> runs I (EAnd a b) (VBool (ba && bb)) J.
  Proof.
    intros Ha Hb s Hs. destruct (Ha s Hs) as (s1 & E1 & J1). cbn [eval]. rewrite E1.
    destruct ba; cbn [truthy andb]; [exact (Hb eq_refl s1 J1)|eauto].
  Qed.

  Lemma runs_or I J a b (ba bb : bool) :
    runs I a (VBool ba) J -> (ba = false -> keeps J b (VBool bb)) -> runs I (EOr a b) (VBool (ba || bb)) J.
  Proof.
    intros Ha Hb s Hs. destruct (Ha s Hs) as (s1 & E1 & J1). cbn [eval]. rewrite E1.
    destruct ba; cbn [truthy orb]; [eauto|exact (Hb eq_refl s1 J1)].
  Qed.

  (* [a] only sets the scene (it binds a variable and answers True): [b] runs in the new scene *)
  Lemma runs_then I J K a b v : runs I a (VBool true) J -> runs J b v K -> runs I (EAnd a b) v K.
  Proof. intros Ha Hb s Hs. destruct (Ha s Hs) as (s1 & E1 & J1). cbn [eval]. rewrite E1. exact (Hb s1 J1). Qed.

  Lemma runs_else I J K a b v : runs I a (VBool false) J -> runs J b v K -> runs I (EOr a b) v K.
  Proof. intros Ha Hb s Hs. destruct (Ha s Hs) as (s1 & E1 & J1). cbn [eval]. rewrite E1. exact (Hb s1 J1). Qed.

  (* the empty conjunction is the code "True", so this rule needs no case for it *)
  Lemma runs_join_and I J a l (ba bl : bool) :
    runs I a (VBool ba) J -> (ba = true -> keeps J (join EAnd l) (VBool bl)) ->
    runs I (join EAnd (a :: l)) (VBool (ba && bl)) J.
  Proof.
    intros Ha Hl. destruct l as [|b l]; [|rewrite join_cons2; now apply runs_and].
    intros s Hs. destruct (Ha s Hs) as (s1 & E1 & J1). exists s1. split; [|exact J1]. cbn [join]. rewrite E1.
    destruct ba; [|reflexivity]. destruct (Hl eq_refl s1 J1) as (s2 & E2 & _). cbn in E2. now inversion E2.
  Qed.

  Lemma keeps_join_and_map {X} I (f : X -> expr) (g : X -> bool) xs :
    (forall x, In x xs -> keeps I (f x) (VBool (g x))) -> keeps I (join EAnd (map f xs)) (VBool (forallb g xs)).
  Proof.
    induction xs as [|x xs IH]; intros H; [now apply keeps_const|]. cbn [map forallb].
    apply runs_join_and; [apply H; now left|]. intros _. apply IH. intros x' Hx'. apply H. now right.
  Qed.

  (* ... whereas the empty disjunction is no code for "False": a disjunction has a first member, which
     may set the scene for the others *)
  Lemma runs_join_or_map {X} (f : X -> expr) (g : X -> bool) xs : forall I J a (ba : bool),
    runs I a (VBool ba) J -> (forall x, In x xs -> keeps J (f x) (VBool (g x))) ->
    runs I (join EOr (a :: map f xs)) (VBool (ba || existsb g xs)) J.
  Proof.
    induction xs as [|x xs IH]; intros I J a ba Ha H; cbn [map existsb]; [now rewrite orb_false_r|].
    rewrite join_cons2. apply runs_or; [exact Ha|]. intros _.
    apply IH; [apply H; now left|]. intros x' Hx'. apply H. now right.
  Qed.

  Section Agree.
    Variable n : nat.
    Variable E : nat -> option pyval.
    Notation A := (agree n E).

    Lemma keeps_var i y : i < n -> E i = Some y -> keeps A (EVar (Pith i)) y.
    Proof. intros L He s Hs. exists s. split; [now apply (ev_var n E)|exact Hs]. Qed.

    Lemma runs_isinst I e y cs : runs I e y A -> runs I (EIsInst e cs) (VBool (isinst y cs)) A.
    Proof.
      intros H s Hs. destruct (H s Hs) as (s1 & E1 & A1). exists (log (TInst y) s1).
      cbn [eval]. rewrite E1. split; [reflexivity|now apply agree_log].
    Qed.

    Lemma runs_issub I e c cs : runs I e (VCls c) A -> runs I (EIsSub e cs) (VBool (existsb (issub c) cs)) A.
    Proof.
      intros H s Hs. destruct (H s Hs) as (s1 & E1 & A1). exists (log (TSub (VCls c)) s1).
      cbn [eval]. rewrite E1. split; [reflexivity|now apply agree_log].
    Qed.

    Lemma runs_not I e y : runs I e y A -> runs I (ENot e) (VBool (negb (truthy y))) A.
    Proof.
      intros H s Hs. destruct (H s Hs) as (s1 & E1 & A1). cbn [eval]. rewrite E1. eexists. split; [reflexivity|].
      destruct (is_container y); [now apply agree_log|exact A1].
    Qed.

    Lemma runs_is I a b va vb : runs I a va A -> keeps A b vb -> runs I (EIs a b) (VBool (val_same va vb)) A.
    Proof.
      intros Ha Hb s Hs. destruct (Ha s Hs) as (s1 & E1 & A1). destruct (Hb s1 A1) as (s2 & E2 & A2).
      exists s2. cbn [eval]. now rewrite E1, E2.
    Qed.

    Lemma runs_len I e y : runs I e y A -> wf y = true -> issub (type_of y) c_Sized = true ->
      runs I (ELen e) (VInt (Z.of_nat (List.length (items y)))) A.
    Proof.
      intros H Hw Hz s Hs. destruct (H s Hs) as (s1 & E1 & A1). exists (log (TLen y) s1).
      cbn [eval]. rewrite E1, (py_len_sized y Hw Hz). split; [reflexivity|now apply agree_log].
    Qed.

    Lemma runs_empty I e y : runs I e y A -> wf y = true -> issub (type_of y) c_Sized = true ->
      runs I (ENot (ELen e)) (VBool (len0 y)) A.
    Proof.
      intros H Hw Hz. replace (len0 y) with (negb (truthy (VInt (Z.of_nat (List.length (items y)))))).
      - now apply runs_not, runs_len.
      - unfold len0. now destruct (items y).
    Qed.

    Lemma runs_index I e ie y z : runs I e y A -> keeps A ie (VInt z) ->
      wf y = true -> issub (type_of y) c_Sequence = true -> (0 <= z < Z.of_nat (List.length (items y)))%Z ->
      runs I (EIndex e ie) (nth (Z.to_nat z) (items y) VNone) A.
    Proof.
      intros H Hi Hw Hq Hz s Hs. destruct (H s Hs) as (s1 & E1 & A1). destruct (Hi s1 A1) as (s2 & E2 & A2).
      exists (log (TItem y (VInt z)) s2). cbn [eval]. rewrite E1, E2, (py_index_sequence y z Hw Hq Hz).
      split; [reflexivity|]. apply agree_log; [now apply safe_item_seq|exact A2].
    Qed.

    Lemma runs_first I e y : runs I e y A -> wf y = true -> issub (type_of y) c_Collection = true ->
      items y <> [] -> runs I (EFirst e) (first y) A.
    Proof.
      intros H Hw Hc Hne s Hs. destruct (H s Hs) as (s1 & E1 & A1). exists (log (TFirst y) s1).
      cbn [eval]. rewrite E1, (py_first_iterable y Hw (iterable_of_collection _ Hc) Hne).
      split; [reflexivity|now apply agree_log].
    Qed.

    Lemma runs_eq I a b va vb : runs I a va A -> keeps A b vb -> runs I (EEq a b) (VBool (py_eq va vb)) A.
    Proof.
      intros Ha Hb s Hs. destruct (Ha s Hs) as (s1 & E1 & A1). destruct (Hb s1 A1) as (s2 & E2 & A2).
      exists (log (TEq va vb) s2). cbn [eval]. rewrite E1, E2. split; [reflexivity|now apply agree_log].
    Qed.

    Lemma keeps_mod a b x m : keeps A a (VInt x) -> keeps A b (VInt m) -> m <> 0%Z ->
      keeps A (EMod a b) (VInt (x mod m)).
    Proof.
      intros Ha Hb Hm s Hs. destruct (Ha s Hs) as (s1 & E1 & A1). destruct (Hb s1 A1) as (s2 & E2 & A2).
      exists s2. cbn [eval]. rewrite E1, E2, (proj2 (Z.eqb_neq m 0) Hm). auto.
    Qed.

    (* the two ways of picking the item of a sequence that is looked at *)
    Lemma keeps_seq_child v y : keeps A v y -> wf y = true -> issub (type_of y) c_Sequence = true ->
      items y <> [] -> keeps A (seq_child cf v) (sample cf r y).
    Proof.
      intros Hv Hw Hq Hne. pose proof (sample_index r y Hne) as Hr.
      unfold seq_child, sample. destruct (is_random cf).
      - replace (match items y with [] => VNone | _ => _ end)
          with (nth (Z.to_nat (r mod Z.of_nat (List.length (items y)))) (items y) VNone)
          by (destruct (items y); congruence).
        apply runs_index; auto. apply keeps_mod; [now apply keeps_const| |lia].
        apply runs_len; auto. now apply sized_of_collection, collection_of_sequence.
      - apply (runs_index A v (EInt 0) y 0); auto; [now apply keeps_const|lia].
    Qed.

    (* a non-empty mapping: its first value, and the value at its first key (which it holds) *)
    Section Mapping.
      Variable y : pyval.
      Hypotheses (Hw : wf y = true) (Hm : issub (type_of y) c_Mapping = true) (Hne : items y <> []).

      Lemma runs_first_value I e : runs I e y A -> runs I (EFirstValue e) (first_value y) A.
      Proof.
        destruct (map_nonempty y Hw Hm Hne) as (c & k & x & rest & ->).
        intros H s Hs. destruct (H s Hs) as (s1 & E1 & A1). eexists.
        cbn [eval]. rewrite E1. split; [reflexivity|]. now apply agree_log.
      Qed.

      Lemma runs_index_key I e ke : runs I e y A -> keeps A ke (first y) -> runs I (EIndex e ke) (value_of_first_key y) A.
      Proof.
        destruct (map_nonempty y Hw Hm Hne) as (c & k & x & rest & ->).
        destruct (map_head c k x rest Hw) as (_ & _ & -> & _ & -> & L).
        intros H Hk s Hs. destruct (H s Hs) as (s1 & E1 & A1). destruct (Hk s1 A1) as (s2 & E2 & A2).
        eexists. cbn [eval]. rewrite E1, E2. unfold py_index. rewrite L.
        split; [reflexivity|]. apply agree_log; [|exact A2]. cbn [safe_op]. now rewrite L.
      Qed.
    End Mapping.
  End Agree.

  Lemma keeps_last i E y : E i = Some y -> keeps (agree (S i) E) (EVar (Pith i)) y.
  Proof. apply keeps_var. lia. Qed.

  (* binding the next pith variable: the body runs in the extended scene, which is then left *)
  Lemma runs_let n E e y : keeps (agree n E) e y ->
    runs (agree n E) (ELet (Pith n) e) (VBool true) (agree (S n) (upd E n y)).
  Proof.
    intros H s Hs. destruct (H s Hs) as (s1 & E1 & A1). exists (bind (Pith n) y s1).
    cbn [eval]. rewrite E1. split; [reflexivity|now apply agree_bind].
  Qed.

  Lemma keeps_scope n E sel y body v :
    runs (agree n E) sel (VBool true) (agree (S n) (upd E n y)) -> keeps (agree (S n) (upd E n y)) body v ->
    keeps (agree n E) (EAnd sel body) v.
  Proof.
    intros Hs Hb. eapply runs_then; [exact Hs|]. eapply runs_post; [exact Hb|].
    intros s. apply agree_ext; [lia|]. intros k Hk. apply upd_other. lia.
  Qed.

  Lemma runs_walrus I n E e y : runs I e y (agree n E) -> runs I (EWalrus (Pith n) e) y (agree (S n) (upd E n y)).
  Proof.
    intros H s Hs. destruct (H s Hs) as (s1 & E1 & A1). exists (bind (Pith n) y s1).
    cbn [eval]. rewrite E1. split; [reflexivity|now apply agree_bind].
  Qed.

  (* what a node is told about its pith expression: it evaluates to y and leaves the pith variables up
     to idx as E says; a pith that is a variable or an assignment is, or has just bound, Pith idx *)
  Definition pith_ok I (pith : expr) (idx : nat) (y : pyval) (E : nat -> option pyval) : Prop :=
    runs I pith y (agree (S idx) E) /\ (simple pith = true -> E idx = Some y) /\
    (forall x, pith = EVar x -> x = Pith idx).

  (* what every node's code guarantees (ignorable hints are elided by their parents) *)
  Definition node_ok (h : hint) : Prop :=
    ignorable h = false ->
    forall I pith idx y E, pith_ok I pith idx y E -> wf y = true ->
      runs I (gen cf h pith idx) (VBool (chk cf r pb h y)) (agree (S idx) E).

  (* leaves evaluate the pith as it stands; every other node evaluates its assignment form, works on
     the variable Pith i this binds, and forgets the binding when it is done *)
  Section Node.
    Variables (I : st -> Prop) (pith : expr) (idx : nat) (y : pyval) (E : nat -> option pyval).
    Hypothesis Ht : pith_ok I pith idx y E.
    Notation i := (node_i pith idx).
    Notation E1 := (upd E i y).

    Lemma node_env k : k < S idx -> E1 k = E k.
    Proof.
      destruct Ht as (_ & He & _). intros L. unfold node_i.
      destruct (simple pith); [now apply upd_id, He|apply upd_other; lia].
    Qed.

    Lemma pith_assign : pith_ok I (node_assign pith idx) i y E1.
    Proof.
      destruct Ht as (H & _ & Hx). pose proof node_env as Hn. unfold node_assign, node_i in *.
      destruct (simple pith) eqn:Es; (split; [|split; [intros _; apply upd_self|]]).
      - eapply runs_post; [exact H|]. intros s. apply agree_ext; [lia|]. intros k Hk. symmetry. now apply Hn.
      - exact Hx.
      - now apply runs_walrus.
      - discriminate.
    Qed.

    Lemma node_close J e v : runs J e v (agree (S i) E1) -> runs J e v (agree (S idx) E).
    Proof.
      intros H. eapply runs_post; [exact H|]. intros s.
      apply agree_ext; [unfold node_i; destruct (simple pith); lia|exact node_env].
    Qed.

    (* most nodes open with isinstance(<assignment>, classes) and then work on the bound variable *)
    Lemma node_guard cs rest b :
      (isinst y cs = true -> keeps (agree (S i) E1) rest (VBool b)) ->
      runs I (EAnd (EIsInst (node_assign pith idx) cs) rest) (VBool (isinst y cs && b)) (agree (S idx) E).
    Proof. intros Hrest. apply node_close, runs_and; [apply runs_isinst, pith_assign|exact Hrest]. Qed.
  End Node.

  (* the piths a parent hands to a child: a compound expression that reads only the current pith
     variable, or that variable itself; the first member of a union and the metahint of an Annotated
     get the parent's own assignment form, whose contract is [pith_assign] *)
  Lemma child_compound ch e i E1 y' :
    node_ok ch -> ignorable ch = false -> simple e = false -> wf y' = true -> keeps (agree (S i) E1) e y' ->
    keeps (agree (S i) E1) (gen cf ch e i) (VBool (chk cf r pb ch y')).
  Proof. intros IH Hig Hs Hw He. apply IH; auto. split; [exact He|]. split; [congruence|now intros x ->]. Qed.

  Lemma child_var ch i E1 y' :
    node_ok ch -> ignorable ch = false -> wf y' = true -> E1 i = Some y' ->
    keeps (agree (S i) E1) (gen cf ch (EVar (Pith i)) i) (VBool (chk cf r pb ch y')).
  Proof.
    intros IH Hig Hw He. apply IH; auto. split; [now apply keeps_last|]. split; [auto|now intros x [= <-]].
  Qed.

  Lemma ok_cls c : node_ok (HCls c).
  Proof. intros _ I pith idx y E Ht Hw. apply runs_isinst, Ht. Qed.

  Lemma ok_shallow c : node_ok (HShallow c).
  Proof. intros _ I pith idx y E Ht Hw. apply runs_isinst, Ht. Qed.

  Lemma seq_child_simple v : simple (seq_child cf v) = false.
  Proof. unfold seq_child. now destruct (is_random cf). Qed.

  (* containers and mappings share a frame: isinstance(<assignment>, origin) and (not len(v) or <code>);
     the code is only ever run on a non-empty instance of the origin *)
  Lemma container_node o code (b : bool) I pith idx y E :
    issub o c_Collection = true -> pith_ok I pith idx y E -> wf y = true ->
    (isinst y [o] = true -> items y <> [] ->
       keeps (agree (S (node_i pith idx)) (upd E (node_i pith idx) y)) code (VBool b)) ->
    runs I (tpl_container code [o] (node_assign pith idx) (EVar (Pith (node_i pith idx))))
         (VBool (isinst y [o] && (len0 y || b))) (agree (S idx) E).
  Proof.
    intros Ho Ht Hw Hcode. unfold tpl_container. apply node_guard; [exact Ht|]. intros Hi.
    apply runs_or; [|intros Hne%len0_false; auto].
    apply runs_empty; [apply keeps_last, upd_self|exact Hw|].
    apply sized_of_collection. now apply (isinst_sub y o).
  Qed.

  Lemma ok_cont s0 ch : node_ok ch -> sign_family s0 <> None -> node_ok (HCont s0 ch).
  Proof.
    intros IH Hf _ I pith idx y E Ht Hw. cbn [gen chk]. destruct (ignorable ch) eqn:Hig; [apply runs_isinst, Ht|].
    fold_node.
    set (i := node_i pith idx). set (E1 := upd E i y).
    pose proof (keeps_last i E1 y (upd_self _ _ _)) as Hv.
    pose proof (family_origin s0) as Ho.
    destruct (sign_family s0) as [[| |]|]; [| | |congruence].
    - apply container_node; auto using collection_of_sequence. intros Hq%(isinst_sub y _ c_Sequence) Hne; auto; [|discriminate].
      apply child_compound; auto using seq_child_simple, wf_sample, keeps_seq_child.
    - apply container_node; auto. intros Hc%(isinst_sub y _ c_Collection) Hne; auto; [|discriminate].
      apply child_compound; auto using wf_first. now apply runs_first.
    - unfold tpl_quasiiterable. apply node_guard; [exact Ht|]. fold i; fold E1. intros _.
      change quasi_collection_abc with c_Collection. change quasi_sequence_abc with c_Sequence.
      rewrite <- orb_assoc. apply runs_or; [now apply (runs_not _ _ _ _ (VBool (isinst y [c_Collection]))), runs_isinst|].
      intros Hc%negb_false_iff. rewrite isinst_single in Hc. pose proof (sized_of_collection _ Hc) as Hz.
      apply runs_or; [now apply runs_empty|]. intros Hne%len0_false.
      pose proof (wf_cause_item cf r FQuasi y Hw Hne) as Hwy'.
      apply (keeps_scope (S i) E1 _ (cause_item cf r FQuasi y)); [|apply child_var; auto using upd_self].
      (* (isinstance(v, Sequence) and (cv := v[...]) is cv) or (cv := next(iter(v))) is cv *)
      pose proof (runs_isinst _ _ _ _ _ [c_Sequence] Hv) as Hq. cbn [cause_item]. change quasi_sequence_abc with c_Sequence.
      destruct (isinst y [c_Sequence]) eqn:Eq.
      + (* [true || false] and, below, [false && false]: the answers written out, so that the rules' conclusions
           are the goal *)
        apply (runs_or _ _ _ _ true false); [|discriminate]. apply (runs_then _ _ _ _ _ _ Hq).
        rewrite isinst_single in Eq. now apply runs_let, keeps_seq_child.
      + eapply runs_else; [|now apply runs_let, runs_first].
        now apply (runs_and _ _ _ _ false false).
  Qed.

  (* "(kv := next(iter(v))) is kv and <key code> and <value code>" on a non-empty mapping: the
     value code runs with the key variable bound, and may index the mapping with it *)
  Section KeyValue.
    Variables (i : nat) (E1 : nat -> option pyval) (y : pyval).
    Hypotheses (Hw : wf y = true) (Hm : issub (type_of y) c_Mapping = true) (Hne : items y <> []) (He : E1 i = Some y).
    Notation E2 := (upd E1 (S i) (first y)).

    Lemma keeps_key_value_child :
      keeps (agree (S (S i)) E2) (tpl_mapping_key_value_child (EVar (Pith i)) (EVar (Pith (S i)))) (value_of_first_key y).
    Proof.
      apply runs_index_key; auto; apply keeps_var; auto using upd_self. now rewrite upd_other by lia.
    Qed.

    Lemma key_value_code kh valcode (bv : bool) :
      node_ok kh -> ignorable kh = false -> keeps (agree (S (S i)) E2) valcode (VBool bv) ->
      keeps (agree (S i) E1)
        (tpl_mapping_key_value (gen cf kh (EVar (Pith (S i))) (S i)) valcode (EVar (Pith i)) (Pith (S i)))
        (VBool (chk cf r pb kh (first y) && bv)).
    Proof.
      intros IH Hig Hval. pose proof (collection_of_mapping _ Hm) as Hc.
      unfold tpl_mapping_key_value. apply (keeps_scope (S i) E1 _ (first y)).
      - apply runs_let, runs_first; auto. now apply keeps_last.
      - apply runs_and; [apply child_var; auto using upd_self, wf_first|intros _; exact Hval].
    Qed.
  End KeyValue.

  Lemma ok_map s0 k vh : node_ok k -> node_ok vh -> In s0 map_signs -> node_ok (HMap s0 k vh).
  Proof.
    intros IHk IHv Hin _ I pith idx y E Ht Hw. pose proof (map_origin_mapping s0 Hin) as Ho.
    cbn [gen chk]. fold_node. set (i := node_i pith idx). set (E1 := upd E i y).
    pose proof (keeps_last i E1 y (upd_self _ _ _)) as Hv.
    destruct (ignorable k) eqn:Hik, (ignorable vh) eqn:Hiv;
      [rewrite orb_true_r, andb_true_r; apply runs_isinst, Ht|..];
      (apply container_node; auto using collection_of_mapping); intros Hm%(isinst_sub y _ c_Mapping) Hne; auto; try discriminate;
      destruct (wf_first_value y Hw Hm Hne) as [Hwx Hvk].
    - unfold tpl_mapping_value_only, tpl_mapping_value_only_child.
      apply child_compound; auto. now apply runs_first_value.
    - rewrite andb_true_r. unfold tpl_mapping_key_only, tpl_mapping_key_only_child.
      apply child_compound; auto using wf_first. apply runs_first; auto using collection_of_mapping.
    - apply key_value_code; auto using upd_self. apply child_compound; auto; [congruence|].
      apply keeps_key_value_child; auto using upd_self.
  Qed.

  Lemma ok_counter k : node_ok k -> node_ok (HCounter k).
  Proof.
    intros IHk _ I pith idx y E Ht Hw. cbn [gen chk]. fold_node. set (i := node_i pith idx). set (E1 := upd E i y).
    pose proof (keeps_last i E1 y (upd_self _ _ _)) as Hv.
    destruct (ignorable k) eqn:Hik; (apply container_node; auto using collection_of_mapping, counter_origin_mapping);
      intros Hm%(isinst_sub y _ c_Mapping) Hne; auto using counter_origin_mapping; try discriminate.
    - unfold tpl_mapping_value_only, tpl_mapping_value_only_child, tpl_instance.
      now apply runs_isinst, runs_first_value.
    - apply key_value_code; auto using upd_self. apply runs_isinst, keeps_key_value_child; auto using upd_self.
  Qed.

  Lemma ok_type cs : node_ok (HType cs).
  Proof.
    intros _ I pith idx y E Ht Hw. cbn [gen chk]. fold_node. unfold tpl_subclass. apply node_guard; [exact Ht|].
    intros Hi. rewrite isinst_single in Hi. destruct (wf_type_shape y Hw Hi) as (c & ->).
    apply runs_issub, keeps_last, upd_self.
  Qed.
  Lemma ok_literal vs : node_ok (HLiteral vs).
  Proof.
    intros _ I pith idx y E Ht Hw. cbn [gen chk]. fold_node.
    unfold tpl_literal_outer_op, tpl_literal_prefix, tpl_literal_inner_op, tpl_literal_item.
    rewrite <- isinst_dedup. apply node_guard; [exact Ht|]. intros Hi.
    (* no member, no class: the guard has just failed on an empty Literal *)
    destruct vs as [|v vs]; [discriminate|].
    apply runs_join_or_map; [|intros v' _]; (apply runs_eq; [apply keeps_last, upd_self|now apply keeps_const]).
  Qed.

  Lemma wf_sized_shape y : wf y = true -> issub (type_of y) c_Sequence = true -> type_of y <> c_str ->
    type_of y <> c_bytes ->
    (exists c l, y = VCont c l /\ issub c c_Sized = true) \/ (exists s, y = VStr s) \/ (exists s, y = VBytes s).
  Proof.
    intros Hw Hs _ _. pose proof (sized_of_collection _ (collection_of_sequence _ Hs)) as Hz.
    pose proof (sized_items y Hw Hz) as Hi. destruct y; try discriminate Hi; eauto.
    destruct (not_map_of_sequence _ _ Hw Hs).
  Qed.

  (* the children of a tuple that is long enough *)
  Lemma tuple_kids_keeps i E1 y : wf y = true -> issub (type_of y) c_Sequence = true -> E1 i = Some y ->
    forall l n, Forall node_ok l -> n + List.length l <= List.length (items y) ->
    keeps (agree (S i) E1) (join EAnd (tuple_kids cf i (EVar (Pith i)) l (Z.of_nat n))) (VBool (tuple_chk cf r pb y l n)).
  Proof.
    intros Hw Hs HE l. induction l as [|h' l IH]; intros n Hok Hlen; [now apply keeps_const|].
    inversion Hok as [|? ? Hh Hl]; subst. cbn [List.length] in Hlen. cbn [tuple_kids tuple_chk].
    replace (Z.of_nat n + 1)%Z with (Z.of_nat (S n)) by lia. specialize (IH (S n) Hl ltac:(lia)).
    destruct (ignorable h') eqn:Hig; [exact IH|]. apply runs_join_and; [|intros _; exact IH].
    apply child_compound; auto; [apply wf_nth; [exact Hw|lia]|]. unfold tpl_tuple_child.
    rewrite <- (Nat2Z.id n) at 2. apply runs_index; auto; [|now apply keeps_const|lia].
    exact (keeps_last _ _ _ HE).
  Qed.

  Lemma ok_tuple hs : Forall node_ok hs -> node_ok (HTuple hs).
  Proof.
    intros IH _ I pith idx y E Ht Hw. rewrite chk_tuple_unfold, <- andb_assoc.
    set (i := node_i pith idx). set (E1 := upd E i y).
    pose proof (keeps_last i E1 y (upd_self _ _ _)) as Hv.
    assert (Hq : isinst y [c_tuple] = true -> issub (type_of y) c_Sequence = true)
      by (intros Hi; now apply (isinst_sub y c_tuple)).
    destruct hs as [|h0 hs].
    - (* tuple[()] *)
      cbn [gen]. fold_node. unfold tpl_tuple_op, tpl_tuple_prefix, tpl_tuple_empty.
      apply node_guard; [exact Ht|]. intros Hz%Hq%collection_of_sequence%sized_of_collection.
      cbn [tuple_chk List.length]. rewrite andb_true_r.
      replace (Nat.eqb _ 0) with (negb (truthy y)); [now apply runs_not|].
      rewrite (truthy_sized y Hw Hz), negb_involutive. unfold len0. now destruct (items y).
    - rewrite gen_tuple_unfold. unfold tpl_tuple_op, tpl_tuple_prefix, tpl_tuple_len. rewrite join_cons2.
      apply node_guard; [exact Ht|]. intros Hs%Hq. pose proof (sized_of_collection _ (collection_of_sequence _ Hs)) as Hz.
      apply runs_join_and.
      + rewrite <- py_eq_len. apply runs_eq; [now apply runs_len|now apply keeps_const].
      + intros Hl%Nat.eqb_eq. apply (tuple_kids_keeps i E1 y Hw Hs (upd_self _ _ _) _ 0 IH). lia.
  Qed.

  (* members that are no plain classes get code of their own *)
  Definition pep (h : hint) : bool := match nonpep_class h with Some _ => false | None => true end.

  (* the first of them may be handed the assignment; every other is checked on the pith variable *)
  Lemma union_peps_eq assign v i hn l : forall is_first,
    union_peps cf assign v i hn l is_first =
    match filter pep l with
    | [] => []
    | h0 :: l' => gen cf h0 (if is_first && negb hn then assign else v) i :: map (fun h' => gen cf h' v i) l'
    end.
  Proof.
    induction l as [|h' l IH]; intros is_first; [reflexivity|]. cbn [union_peps filter]. unfold pep at 1.
    destruct (nonpep_class h'); [apply IH|]. rewrite IH. now destruct (filter pep l).
  Qed.

  (* the plain classes are tested first, in one isinstance() *)
  Lemma chk_union_split y hs :
    chk cf r pb (HUnion hs) y = isinst y (union_nonpep hs) || existsb (fun h' => chk cf r pb h' y) (filter pep hs).
  Proof.
    rewrite chk_union. unfold union_nonpep. rewrite isinst_dedup. unfold isinst. induction hs as [|h' hs IH]; [reflexivity|].
    cbn [existsb flat_map filter]. rewrite IH. unfold pep at 2.
    destruct h'; cbn [nonpep_class app existsb]; try now rewrite orb_assoc, (orb_comm (chk _ _ _ _ _)), orb_assoc.
    cbn [chk]. now rewrite isinst_single, orb_assoc.
  Qed.

  Lemma union_members hs : union_nonpep hs = [] -> filter pep hs = [] -> hs = [].
  Proof.
    destruct hs as [|h0 hs]; [reflexivity|]. unfold union_nonpep, pep. cbn [flat_map filter].
    destruct (nonpep_class h0); [intros H%dedup_nil|]; discriminate.
  Qed.

  Lemma ok_union hs : hs <> [] -> Forall node_ok hs -> node_ok (HUnion hs).
  Proof.
    intros Hne IH Hig I pith idx y E Ht Hw. rewrite ignorable_union, existsb_false in Hig.
    rewrite gen_union_unfold, chk_union_split. cbn zeta. rewrite union_peps_eq.
    set (i := node_i pith idx). set (E1 := upd E i y). unfold tpl_union_op, tpl_union_nonpep.
    assert (Hin : forall h', In h' (filter pep hs) -> node_ok h' /\ ignorable h' = false).
    { intros h' [Hh _]%filter_In. rewrite Forall_forall in IH. auto. }
    assert (Hrest : forall h', In h' (filter pep hs) ->
              keeps (agree (S i) E1) (gen cf h' (EVar (Pith i)) i) (VBool (chk cf r pb h' y))).
    { intros h' [Hh Hu]%Hin. apply child_var; auto. apply upd_self. }
    destruct (union_nonpep hs) as [|c0 cs] eqn:Enp, (filter pep hs) as [|h1 l] eqn:Ef; cbn [app andb negb].
    - destruct (Hne (union_members hs Enp Ef)).
    - (* only members with code of their own: the first one carries the assignment *)
      destruct (Hin h1 (or_introl eq_refl)) as [Hh Hu]. cbn [isinst existsb orb].
      apply (node_close _ _ _ _ _ Ht), runs_join_or_map; [apply Hh; auto using pith_assign|]. intros h' Hh'. apply Hrest. now right.
    - (* only plain classes *)
      rewrite orb_false_r. apply runs_isinst, Ht.
    - (* both: one isinstance against all the classes comes first *)
      apply (node_close _ _ _ _ _ Ht), (runs_join_or_map (fun h' => gen cf h' (EVar (Pith i)) i) _ (h1 :: l)); [|exact Hrest].
      apply runs_isinst, (pith_assign _ _ _ _ _ Ht).
  Qed.

  (* the inline code of a validator computes its boolean meaning and binds only temporaries of
     its own, in every state; the operations it performs are harmless, so a safe trace stays safe *)
  Lemma vcode_correct v : forall obj y s,
    wf y = true -> env_get obj (env s) = Some y ->
    exists s', ev (vcode v obj) s = (Ok (VBool (vmean pb v y)), s')
               /\ (forall x, ~ extends obj x -> env_get x (env s') = env_get x (env s))
               /\ (Forall safe_op (trace s) -> Forall safe_op (trace s')).
  Proof.
    induction v as [f|n w IH|o|cs|cs|a IHa b IHb|a IHa b IHb|a IHa]; intros obj y s Hw He; cbn [vcode vmean];
      unfold tpl_vale_isattr, tpl_vale_isequal, tpl_vale_isinstance, tpl_vale_issubclass; cbn [eval]; rewrite ?He.
    - eexists. repeat split. now apply safe_log.
    - destruct (py_getattr y n) as [a|] eqn:Ea; cbn [truthy]; [|eexists; repeat split; now apply safe_log].
      set (s1 := bind (attr_tmp obj n) a (log (TAttr y n) s)).
      destruct (IH (attr_tmp obj n) a s1 (wf_getattr _ _ _ Hw Ea) (env_get_bind_same _ _ _)) as (s2 & E2 & F2 & T2).
      rewrite E2. exists s2. repeat split.
      + intros x Hx. rewrite F2.
        * unfold s1. rewrite env_get_bind_other; [reflexivity|]. intros ->. apply Hx, extends_attr.
        * intros Hx'. apply Hx. eapply extends_trans; [apply extends_attr|exact Hx'].
      + intros Ht. now apply T2, safe_log.
    - eexists. repeat split. now apply safe_log.
    - eexists. repeat split. now apply safe_log.
    - cbn [truthy]. destruct (isinst y [c_type]) eqn:Ei; cbn [andb]; [|eexists; repeat split; now apply safe_log].
      rewrite isinst_single in Ei. destruct (wf_type_shape y Hw Ei) as (c & ->).
      cbn [env log]. rewrite He. cbn [issubcls]. eexists. repeat split. intros Ht. now apply safe_log; [|apply safe_log].
    - destruct (IHa obj y s Hw He) as (s1 & E1 & F1 & T1). rewrite E1. cbn [truthy].
      destruct (vmean pb a y); cbn [andb]; [|exists s1; repeat split; auto].
      destruct (IHb obj y s1 Hw) as (s2 & E2 & F2 & T2); [rewrite F1; [exact He|apply extends_irrefl]|].
      rewrite E2. exists s2. repeat split; auto. intros x Hx. now rewrite F2, F1.
    - destruct (IHa obj y s Hw He) as (s1 & E1 & F1 & T1). rewrite E1. cbn [truthy].
      destruct (vmean pb a y); cbn [orb]; [exists s1; repeat split; auto|].
      destruct (IHb obj y s1 Hw) as (s2 & E2 & F2 & T2); [rewrite F1; [exact He|apply extends_irrefl]|].
      rewrite E2. exists s2. repeat split; auto. intros x Hx. now rewrite F2, F1.
    - destruct (IHa obj y s Hw He) as (s1 & E1 & F1 & T1). rewrite E1. cbn [truthy is_container].
      exists s1. repeat split; auto.
  Qed.

  Lemma keeps_validators vs i E1 y : wf y = true -> E1 i = Some y ->
    keeps (agree (S i) E1) (join EAnd (map (fun w => vcode w (Pith i)) vs)) (VBool (forallb (fun w => vmean pb w y) vs)).
  Proof.
    intros Hw HE. apply keeps_join_and_map. intros w _ s A.
    destruct (vcode_correct w (Pith i) y s Hw) as (s' & E' & F' & T');
      [rewrite (agree_get _ _ _ i A) by lia; exact HE|].
    exists s'. split; [exact E'|]. split; [|exact (T' (agree_safe _ _ _ A))].
    intros k Hk. rewrite F' by easy. now apply (agree_get _ _ _ k A).
  Qed.

  Lemma ok_annot mh vs : node_ok mh -> node_ok (HAnnot mh vs).
  Proof.
    intros IH _ I pith idx y E Ht Hw. cbn [gen chk]. fold_node. unfold tpl_annotated_op, tpl_annotated_pith.
    set (i := node_i pith idx). set (E1 := upd E i y).
    pose proof (keeps_validators vs i E1 y Hw (upd_self _ _ _)) as Hvs.
    apply (node_close _ _ _ _ _ Ht).
    destruct (ignorable mh) eqn:Hig; [destruct (is_ident pith) as [x|] eqn:Eid|].
    - (* the pith is already a variable: by the generator's invariant it is the current one; reading it leaves
         the state as it is, so what [pith_assign] promises after the read already holds before it *)
      destruct (pith_assign _ _ _ _ _ Ht) as (H & _). destruct Ht as (_ & _ & Hx).
      destruct pith; try discriminate. injection Eid as ->. rewrite (Hx x eq_refl) in *.
      eapply runs_pre; [|exact Hvs]. intros s Ha. destruct (H s Ha) as (s1 & E1' & A1).
      cbn [node_assign simple eval] in E1'. destruct (env_get _ _); now inversion E1'; subst.
    - (* a compound pith: localise it first *)
      apply (runs_join_and _ _ _ _ true); [|intros _; exact Hvs]. rewrite <- (val_same_refl y).
      apply runs_is; [apply (pith_assign _ _ _ _ _ Ht)|apply keeps_last, upd_self].
    - (* an unignorable metahint is checked first, on the assignment *)
      apply runs_join_and; [apply IH; auto using pith_assign|intros _; exact Hvs].
  Qed.

  Theorem gen_correct h : hint_ok h = true -> node_ok h.
  Proof.
    apply hint_ok_ind; auto using ok_cls, ok_shallow, ok_union, ok_cont, ok_map, ok_counter, ok_tuple,
      ok_literal, ok_type, ok_annot.
    discriminate.
  Qed.

  Lemma root_run h x :
    hint_ok h = true -> wf x = true -> ignorable h = false ->
    exists s2, ev (gen cf h (EVar (Pith 0)) 0) (st0 x) = (Ok (VBool (chk cf r pb h x)), s2)
               /\ Forall safe_op (trace s2).
  Proof.
    intros Hok Hw Hig. pose (E := fun k : nat => if Nat.eqb k 0 then Some x else None).
    destruct (child_var h 0 E x (gen_correct h Hok) Hig Hw eq_refl (st0 x)) as (s2 & E2 & P2).
    - split; [|constructor]. intros [|k] Hk; [reflexivity|lia].
    - exists s2. split; [exact E2|]. exact (agree_safe _ _ _ P2).
  Qed.

  (* the whole checker: for every well-formed hint and object, every draw and every user
     callable table, the generated expression returns exactly [check], never raising *)
  Theorem check_expr_correct h x :
    hint_ok h = true -> wf x = true ->
    verdict r preds (check_expr cf h) x = Ok (check cf r pb h x).
  Proof.
    intros Hok Hw. unfold verdict, check_expr, check. destruct (ignorable h) eqn:Hig; [reflexivity|].
    destruct (root_run h x Hok Hw Hig) as (s2 & E2 & _). rewrite E2. reflexivity.
  Qed.

  (* ... and every protocol operation it performs on the objects it inspects is safe *)
  Theorem check_expr_trace_safe h x :
    hint_ok h = true -> wf x = true ->
    Forall safe_op (trace_of r preds (check_expr cf h) x).
  Proof.
    intros Hok Hw. unfold trace_of, check_expr. destruct (ignorable h) eqn:Hig; [constructor|].
    destruct (root_run h x Hok Hw Hig) as (s2 & E2 & T2). now rewrite E2.
  Qed.

  Corollary check_expr_op_safe h x t :
    hint_ok h = true -> wf x = true -> In t (trace_of r preds (check_expr cf h) x) -> safe_op t.
  Proof. intros Hok Hw. now apply Forall_forall, check_expr_trace_safe. Qed.
End Correct.
