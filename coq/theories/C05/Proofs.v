(* C05 proofs.  [visit] rewrites a statement into a short list of statements; every claim about it
   has the form "a reading g of statement lists (what is left after erasing the hook's nodes, the
   line numbers, the expressions evaluated) is kept by visit up to a relation R" (= or incl).
   [keeps] names that form once; [keeps_list] lifts it from statements to suites. *)
From Coq Require Import List Bool.
From BT Require Import C05.Ast.
Import ListNotations.

Definition suites (s : stmt) : list (list stmt) :=
  match s with SFunc _ _ _ _ body _ | SClass _ _ body _ => [body] | SBlock _ bodies _ => bodies | _ => [] end.

(* [f] stands outside the [fix], so that [stmt_ind2] can pass itself for [f] and still be guarded *)
Definition Forall_all {A} (P : A -> Prop) (f : forall x, P x) : forall l, Forall P l :=
  fix go l := match l with [] => Forall_nil P | x :: r => Forall_cons x (f x) (go r) end.

(* induction over statements: the property may be assumed of every statement of every suite *)
Fixpoint stmt_ind2 (P : stmt -> Prop) (step : forall s, Forall (Forall P) (suites s) -> P s) (s : stmt) : P s :=
  let suite := Forall_all P (stmt_ind2 P step) in
  step s match s return Forall (Forall P) (suites s) with
         | SFunc _ _ _ _ body _ | SClass _ _ body _ => Forall_cons body (suite body) (Forall_nil _)
         | SBlock _ bodies _ => Forall_all _ suite bodies
         | _ => Forall_nil _
         end.

Lemma flat_map_flat_map {A B C} (f : A -> list B) (g : B -> list C) l :
  flat_map g (flat_map f l) = flat_map (fun x => flat_map g (f x)) l.
Proof. induction l as [|x l IH]; [reflexivity|]. cbn. now rewrite flat_map_app, IH. Qed.

Lemma flat_map_map {A B C} (f : A -> B) (g : B -> list C) l : flat_map g (map f l) = flat_map (fun x => g (f x)) l.
Proof. induction l as [|x l IH]; [reflexivity|]. cbn. now rewrite IH. Qed.

Section Keeps.
  Context {C : Type} (R : list C -> list C -> Prop).
  Hypothesis Rnil : R [] [].
  Hypothesis Rapp : forall a c b d, R a b -> R c d -> R (a ++ c) (b ++ d).

  Lemma flat_map_rel {A} (g h : A -> list C) l : Forall (fun x => R (g x) (h x)) l -> R (flat_map g l) (flat_map h l).
  Proof. induction 1; cbn; auto. Qed.

  Variables (cf : aconf) (g : scope -> stmt -> list C).

  Definition keeps (s : stmt) : Prop := forall sc, R (flat_map (g sc) (visit cf sc s)) (g sc s).

  Lemma keeps_list sc l : Forall keeps l -> R (flat_map (g sc) (flat_map (visit cf sc) l)) (flat_map (g sc) l).
  Proof. intros H. rewrite flat_map_flat_map. apply flat_map_rel. revert H. apply Forall_impl. intros s Hs. apply Hs. Qed.

  Lemma keeps_blocks sc bodies : Forall (Forall keeps) bodies ->
    R (flat_map (flat_map (g sc)) (map (flat_map (visit cf sc)) bodies)) (flat_map (flat_map (g sc)) bodies).
  Proof. intros H. rewrite flat_map_map. apply flat_map_rel. revert H. apply Forall_impl. intros b. apply keeps_list. Qed.
End Keeps.

Arguments keeps_list {C R} Rnil Rapp {cf g} sc {l}.
Arguments keeps_blocks {C R} Rnil Rapp {cf g} sc {bodies}.

Lemma eq_app {C} (a c b d : list C) : a = b -> c = d -> a ++ c = b ++ d.
Proof. now intros -> ->. Qed.

(* the longest prefix of docstrings and __future__ imports *)
Lemma split_prologue_spec m : let '(p, q) := split_prologue m in
  m = p ++ q /\ forallb is_prologue p = true /\ match q with s :: _ => is_prologue s = false | [] => True end.
Proof.
  induction m as [|s m IH]; cbn; [now repeat split|].
  destruct (is_prologue s) eqn:E; [|now repeat split].
  destruct (split_prologue m) as [p q]. destruct IH as (-> & Hp & Hq). cbn. now rewrite E.
Qed.

Lemma flat_map_id {A} (p : A -> bool) (f : A -> list A) l :
  Forall (fun x => p x = true -> f x = [x]) l -> forallb p l = true -> flat_map f l = l.
Proof. induction 1 as [|x l Hx Hl IH]; [reflexivity|]. cbn. intros [Hp Hq]%andb_true_iff. now rewrite Hx, IH. Qed.

Lemma prologue_visit cf p : forallb is_prologue p = true -> flat_map (visit cf ScModule) p = p.
Proof. apply flat_map_id, Forall_all. now intros []. Qed.

Definition import_for (rest : list stmt) : list stmt :=
  match rest with [] => [] | s :: _ => [SImportStar (line_of s)] end.

(* transform, in one shape for both of its branches *)
Lemma transform_split cf m :
  exists pro rest, m = pro ++ rest /\ transform cf m = pro ++ import_for rest ++ flat_map (visit cf ScModule) rest.
Proof.
  pose proof (split_prologue_spec m) as H. unfold transform. destruct (split_prologue m) as [pro rest].
  destruct H as (-> & Hp & _). exists pro, rest. split; [reflexivity|].
  destruct rest; [|reflexivity]. rewrite !app_nil_r. now apply prologue_visit.
Qed.

Lemma filter_add_deco p wc l ds : filter user_deco (add_deco p (DBear wc l) ds) = filter user_deco ds.
Proof. destruct p; cbn; [|reflexivity]. rewrite filter_app. apply app_nil_r. Qed.

Lemma erase_visit cf s : keeps eq cf (fun _ => erase) s.
Proof.
  induction s as [s H] using stmt_ind2; intros sc; destruct s; cbn [visit]; try reflexivity; cbn [flat_map erase]; rewrite ?app_nil_r.
  - do 2 f_equal; [|exact (keeps_list eq_refl eq_app _ (Forall_inv H))].
    destruct sc; try reflexivity; destruct typed; try reflexivity; apply filter_add_deco.
  - do 2 f_equal; [apply filter_add_deco|exact (keeps_list eq_refl eq_app _ (Forall_inv H))].
  - destruct value as [v|]; [|reflexivity]. destruct sc, t; try reflexivity; destruct (pep526 cf); reflexivity.
  - do 2 f_equal. rewrite map_map. apply map_ext_Forall. revert H. apply Forall_impl. intros b. exact (keeps_list eq_refl eq_app _).
Qed.

Lemma erase_transform_any cf m : flat_map erase (transform cf m) = flat_map erase m.
Proof.
  destruct (transform_split cf m) as (pro & rest & -> & ->). rewrite !flat_map_app. f_equal.
  replace (flat_map erase (import_for rest)) with (@nil stmt) by now destruct rest.
  exact (keeps_list eq_refl eq_app _ (Forall_all _ (erase_visit cf) _)).
Qed.

Lemma filter_all {A} (p : A -> bool) l : forallb p l = true -> filter p l = l.
Proof. induction l as [|x l IH]; [reflexivity|]. cbn. intros [-> H]%andb_true_iff. f_equal. now apply IH. Qed.

Lemma erase_original s : original s = true -> erase s = [s].
Proof.
  induction s as [s H] using stmt_ind2; destruct s; cbn [original erase suites] in *; try reflexivity; try discriminate.
  - intros [Hd Hb]%andb_true_iff. now rewrite (filter_all _ _ Hd), (flat_map_id original erase body (Forall_inv H)).
  - intros [Hd Hb]%andb_true_iff. now rewrite (filter_all _ _ Hd), (flat_map_id original erase body (Forall_inv H)).
  - intros Ho. do 2 f_equal. rewrite <- (map_id bodies) at 2. apply map_ext_Forall.
    rewrite forallb_forall in Ho. rewrite Forall_forall in *. intros b Hb. apply (flat_map_id original); auto.
Qed.

Definition deco_lines := flat_map (fun d => match d with DBear _ dl => [dl] | _ => [] end).

Lemma deco_lines_add p wc l ds : incl (deco_lines (add_deco p (DBear wc l) ds)) (l :: deco_lines ds).
Proof.
  destruct p; cbn [add_deco]; [|apply incl_refl]. unfold deco_lines. rewrite flat_map_app.
  apply incl_app; [apply incl_tl, incl_refl|]. intros x [<-|[]]. now left.
Qed.

Lemma lines_visit cf s : keeps (@incl nat) cf (fun _ => lines) s.
Proof.
  induction s as [s H] using stmt_ind2; intros sc; destruct s; cbn [visit]; try (cbn [flat_map]; rewrite app_nil_r; apply incl_refl).
  - cbn [flat_map lines]. rewrite app_nil_r. apply incl_cons; [now left|]. apply incl_app.
    + destruct sc; try (destruct typed); try (eapply incl_tran; [apply deco_lines_add|]); auto with datatypes.
    + apply incl_tl, incl_appr. exact (keeps_list (incl_refl _) (@incl_app_app _) _ (Forall_inv H)).
  - cbn [flat_map lines]. rewrite app_nil_r. apply incl_cons; [now left|]. apply incl_app.
    + eapply incl_tran; [apply deco_lines_add|]. auto with datatypes.
    + apply incl_tl, incl_appr. exact (keeps_list (incl_refl _) (@incl_app_app _) _ (Forall_inv H)).
  - (* the check carries the assignment's line *)
    destruct value as [v|]; [|cbn [flat_map]; rewrite app_nil_r; apply incl_refl].
    destruct sc, t; try (cbn [flat_map]; rewrite app_nil_r; apply incl_refl);
      destruct (pep526 cf); cbn; intros x Hx; cbn in *; tauto.
  - cbn [flat_map lines]. rewrite app_nil_r. apply incl_cons; [now left|]. apply incl_tl.
    exact (keeps_blocks (incl_refl _) (@incl_app_app _) _ H).
Qed.

Lemma evals_visit_off cf s : pep526 cf = false -> keeps eq cf evals s.
Proof.
  intros Hoff. induction s as [s H] using stmt_ind2; intros sc; destruct s; cbn [visit]; try (cbn [flat_map]; now rewrite app_nil_r).
  - (* class: its body runs when the class statement does *)
    cbn [flat_map evals]. rewrite app_nil_r. exact (keeps_list eq_refl eq_app _ (Forall_inv H)).
  - destruct value as [v|]; [|cbn [flat_map]; now rewrite app_nil_r].
    destruct sc, t; rewrite ?Hoff; cbn [flat_map]; now rewrite app_nil_r.
  - cbn [flat_map evals]. rewrite app_nil_r. exact (keeps_blocks eq_refl eq_app _ H).
Qed.
