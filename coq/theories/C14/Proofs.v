(* C14 proofs: when memoisation is invisible, and the histories on which it is not. *)
From Coq Require Import List Bool Arith.
From BT Require Import Core.PyVal C14.Memo.
Import ListNotations.

Section Proofs.
  Variable f : pyval -> outcome.

  (* @callable_cached: the callable it memoises cannot tell apart arguments that Python's == (and hash) identify *)
  Definition congruent : Prop :=
    forall k k', hashable k = true -> hashable k' = true -> py_eq k' k = true -> f k' = f k.

  Definition einv (c : ecache) : Prop := forall k o, In (k, o) c -> o = f k /\ hashable k = true.

  Lemma elookup_sound c k o : congruent -> einv c -> hashable k = true -> elookup k c = Some o -> o = f k.
  Proof.
    intros Hc Hinv Hk. induction c as [|[k' o'] c IH]; cbn; [discriminate|].
    destruct (py_eq k' k) eqn:E.
    - intros H. inversion H; subst. destruct (Hinv k' o (or_introl eq_refl)) as [-> Hk']. now apply Hc.
    - apply IH. intros a b Hin. apply Hinv. now right.
  Qed.

  Theorem callable_cached_invisible ops : congruent -> forall c, einv c -> map fst (erun f c ops) = eref f ops.
  Proof.
    intros Hc. induction ops as [|[k|] ops IH]; intros c Hinv; cbn [erun eref map]; [reflexivity| |].
    - unfold ecall. destruct (hashable k) eqn:Hk.
      + destruct (elookup k c) as [o|] eqn:El.
        * cbn [map fst]. rewrite (elookup_sound c k o Hc Hinv Hk El). f_equal. now apply IH.
        * cbn [map fst]. f_equal. apply IH. intros a b [H|H]; [inversion H; subst; auto|now apply Hinv].
      + cbn [map fst]. f_equal. now apply IH.
    - apply IH. intros a b [].
  Qed.

  Theorem callable_cached_hit c k o : elookup k c = Some o -> hashable k = true -> snd (ecall f c k) = false.
  Proof. intros El Hk. unfold ecall. now rewrite Hk, El. Qed.

  (* @method_cached_arg_by_id: a memo keyed by the identity of its argument *)

  Lemma hget_hdel_same i h : hget i (hdel i h) = None.
  Proof. induction h as [|[j v] h IH]; [reflexivity|]. cbn. destruct (Nat.eqb j i) eqn:E; [exact IH|]. cbn. now rewrite E. Qed.

  Lemma hget_hdel_other i j h : i <> j -> hget j (hdel i h) = hget j h.
  Proof.
    intros Hne. induction h as [|[a v] h IH]; [reflexivity|]. cbn.
    destruct (Nat.eqb_spec a i) as [->|_]; cbn.
    - destruct (Nat.eqb_spec i j); [congruence|exact IH].
    - destruct (Nat.eqb a j); [reflexivity|exact IH].
  Qed.

  Definition iinv (h : heap) (c : icache) (called : list nat) : Prop :=
    forall i o, iget i c = Some o -> In i called /\ exists v, hget i h = Some v /\ o = f v.

  (* frame: the invariant survives any change of the heap that keeps the objects called on,
     and any growth of the set of objects called on *)
  Lemma iinv_frame h h' c called called' :
    iinv h c called -> (forall i v, In i called -> hget i h = Some v -> hget i h' = Some v) -> incl called called' ->
    iinv h' c called'.
  Proof. intros Hinv Hh Hc i o Hi. destruct (Hinv i o Hi) as [Hin (v & Hv & Ho)]. eauto 6. Qed.

  Lemma iinv_alloc h c called i v : iinv h c called -> hget i h = None -> iinv ((i, v) :: hdel i h) c called.
  Proof.
    intros Hinv Hi. apply (iinv_frame h _ c called called Hinv); [|apply incl_refl]. intros j w _ Hj.
    cbn [hget]. destruct (Nat.eqb_spec i j) as [->|Hne]; [congruence|]. now rewrite hget_hdel_other.
  Qed.

  Lemma iinv_free h c called i : iinv h c called -> existsb (Nat.eqb i) called = false -> iinv (hdel i h) c called.
  Proof.
    intros Hinv Hi. apply (iinv_frame h _ c called called Hinv); [|apply incl_refl]. intros j w Hj Hw.
    rewrite hget_hdel_other; [exact Hw|]. intros ->. assert (existsb (Nat.eqb j) called = true); [|congruence].
    apply existsb_exists. exists j. split; [exact Hj|apply Nat.eqb_refl].
  Qed.

  Lemma iinv_store h c called i v : iinv h c called -> hget i h = Some v -> iinv h ((i, f v) :: c) (i :: called).
  Proof.
    intros Hinv Hv j o. cbn [iget]. destruct (Nat.eqb_spec i j) as [<-|_].
    - intros [= <-]. split; [now left|]. now exists v.
    - intros Hj. destruct (Hinv j o Hj) as [Hc R]. split; [now right|exact R].
  Qed.

  Theorem cached_by_id_invisible_when_pinned ops :
    forall h c called, iinv h c called -> wf_ops h ops = true -> pinned called ops = true ->
    irun f h c ops = iref f h ops.
  Proof.
    induction ops as [|[i v|i|i|] ops IH]; intros h c called Hinv Hwf Hpin; cbn [irun iref wf_ops pinned] in *; [reflexivity| | | |].
    - destruct (hget i h) eqn:Eh; [discriminate|]. apply (IH _ _ called); auto using iinv_alloc.
    - apply andb_true_iff in Hpin as [Hnot%negb_true_iff Hpin]. apply (IH _ _ called); auto using iinv_free.
    - assert (Hinv' : iinv h c (i :: called)) by (apply (iinv_frame h h c called); auto using incl_tl, incl_refl).
      destruct (hget i h) as [v|] eqn:Eh; [|f_equal; now apply (IH _ _ (i :: called))].
      destruct (iget i c) as [o|] eqn:Ec; f_equal.
      + destruct (Hinv i o Ec) as [_ (w & Hw & ->)]. congruence.
      + now apply (IH _ _ (i :: called)).
      + apply (IH _ _ (i :: called)); auto using iinv_store.
    - apply (IH _ _ []); auto. intros j o Hj. discriminate.
  Qed.
End Proofs.

